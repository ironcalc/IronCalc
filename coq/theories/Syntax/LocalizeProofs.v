(* Syntax/LocalizeProofs.v — proofs about Syntax/Localize.v (C10). *)
From IronCalc Require Import Base.Prelude Codec.RefA1 Syntax.Token Syntax.Ast Syntax.Printer Syntax.Parser Syntax.Shape
  Syntax.FuelProofs Syntax.Localize.
From IronCalc Require Generated.Tables_c23 Generated.Locales_c19 Codec.Names Codec.NamesProofs Num.Recognise Sheet.Persist.

(* ---- the generated tables are well formed ---------------------------------------------------- *)
Lemma of_nat_eqb a b : (Z.of_nat a =? Z.of_nat b) = true <-> a = b.
Proof. rewrite Z.eqb_eq. apply Nat2Z.inj_iff. Qed.

Lemma plain_trim_start name p : NamesProofs.plain name = true -> NamesProofs.head p = 95 -> trim_start p name = name.
Proof.
  intro H. destruct p as [|a p]; [discriminate|]. cbn [NamesProofs.head]. intros ->.
  destruct name as [|c s]; [reflexivity|]. apply negb_true_iff in H.
  unfold trim_start. cbn [NamesProofs.head length trim_start_fuel strip_prefix] in *.
  rewrite Z.eqb_sym, H. reflexivity.
Qed.

(* [fun_name_ok] at [names_of lang] and [Names.call] model the same arm of the parser (C09 and C23);
   on a name that is lexed as an identifier and does not begin with '_' they say the same *)
Lemma fn_ok_call lang f :
  Names.is_ident (Names.localized lang f) = true -> NamesProofs.plain (Names.localized lang f) = true ->
  (fn_ok lang f = true <-> Names.call lang (Names.localized lang f) = Names.CFn f).
Proof.
  intros Hi Hp. unfold fn_ok, fun_name_ok, Names.call, Names.resolve, names_of.
  cbn [fn_name bool_of_name nm_upper fn_lookup fn_true fn_false]. rewrite Nat2Z.id, Hi.
  rewrite !(plain_trim_start _ _ Hp), !(NamesProofs.plain_trim _ _ Hp), !(NamesProofs.plain_neq _ _ Hp) by reflexivity.
  change Names.t_LAMBDA with t_lambda. cbn [negb andb orb].
  destruct (text_eqb _ (Names.true_name lang)); [rewrite of_nat_eqb; split; congruence|].
  destruct (text_eqb _ (Names.false_name lang)); [rewrite of_nat_eqb; split; congruence|].
  destruct (text_eqb _ t_lambda); [split; discriminate|]. cbn [negb andb].
  destruct (Names.lookup lang (Names.localized lang f)) as [g|]; [rewrite of_nat_eqb; split; congruence | split; discriminate].
Qed.

Theorem fn_ok_exact lang f : In lang all_langs -> (f < Tables_c23.n_fn)%nat ->
  (fn_ok lang f = true <-> NamesProofs.known_shadowed lang f = false /\ f <> Tables_c23.fn_lambda).
Proof.
  intros Hl%in_seq Hf. destruct (NamesProofs.name_shape lang f) as (Hi & Hp & _); [lia | exact Hf |].
  rewrite (fn_ok_call lang f Hi Hp). apply NamesProofs.call_exact; [lia | exact Hf].
Qed.

Theorem err_ok_exact lang e : In lang all_langs -> (e < Names.n_err)%nat ->
  (err_ok lang e = true <-> Names.error_name lang e = Names.display e).
Proof.
  intros Hl%in_seq He. rewrite <- (NamesProofs.literal_exact lang e) by (lia || exact He).
  unfold err_ok, is_terror, names_of, Names.print_error_literal. cbn [err_tokens]. rewrite Nat2Z.id.
  destruct (Names.lex_error lang (Names.display e)) as [[e' [|c r]]|]; try (split; discriminate).
  rewrite of_nat_eqb. split; [intros -> | intros [= ->]]; reflexivity.
Qed.

(* the two sweeps of [lang_wf] are the two theorems above; the rest is small and computed *)
Lemma all_langs_wf lang : In lang all_langs -> lang_wf lang = true.
Proof.
  intro Hl. unfold lang_wf. rewrite !andb_true_iff. repeat split.
  1: { apply forallb_forall. intros f Hf%in_seq. apply eqb_true_iff, eq_true_iff_eq.
       rewrite (fn_ok_exact lang f Hl), andb_true_iff, !negb_true_iff, Nat.eqb_neq by lia. reflexivity. }
  1: { apply forallb_forall. intros e He%in_seq. apply eqb_true_iff, eq_true_iff_eq.
       rewrite (err_ok_exact lang e Hl), text_eqb_eq by lia. reflexivity. }
  all: revert lang Hl; apply forallb_forall; vm_compute; reflexivity.
Qed.
Lemma all_locales_wf : forallb loc_wf all_locales = true.
Proof. vm_compute. reflexivity. Qed.

Theorem tables_wf lang loc : In lang all_langs -> In loc all_locales -> table_wf lang loc = true.
Proof.
  intros Hl Hc. unfold table_wf. rewrite (all_langs_wf lang Hl). exact (proj1 (forallb_forall _ _) all_locales_wf loc Hc).
Qed.

(* F60 *)
Theorem row_sep_exact loc : row_sep_mismatch loc = negb (dot_of loc).
Proof. unfold row_sep_mismatch, dot_of, row_sep_print_char, row_sep_parse_char. destruct (Recognise.l_dec loc =? 46); reflexivity. Qed.

(* ---- image in one configuration, names_ok in another => image in the other ------------------- *)
Section Transfer.
  Variables m1 m2 : pmode.
  Variables nm1 nm2 : names.
  Variable env : penv.
  Hypothesis Hx : pm_xlsx m1 = pm_xlsx m2.
  Hypothesis Hlow : forall t, nm_lower nm1 t = nm_lower nm2 t.
  (* a reference the first form can spell can be spelled in the second *)
  Hypothesis Hpref : forall p, pref_ok m1 p = true -> pref_ok m2 p = true.
  Hypothesis Hrange : forall p q, range_ok m1 p q = true -> range_ok m2 p q = true.

  Lemma find_defname_eq pred ln l : find_defname nm1 pred ln l = find_defname nm2 pred ln l.
  Proof. induction l as [|[[n sc] f] l IH]; cbn [find_defname]; [reflexivity|]. rewrite Hlow, IH. reflexivity. Qed.
  Lemma get_defined_name_eq name ci : get_defined_name nm1 env name ci = get_defined_name nm2 env name ci.
  Proof. unfold get_defined_name. rewrite Hlow, !find_defname_eq. reflexivity. Qed.
  Lemma is_table_eq name : is_table nm1 env name = is_table nm2 env name.
  Proof.
    unfold is_table. rewrite Hlow. induction (pe_tables env) as [|t l IH]; cbn [existsb]; [reflexivity|].
    rewrite Hlow, IH. reflexivity.
  Qed.
  Lemma var_ok_eq name : var_ok nm1 env name = var_ok nm2 env name.
  Proof. unfold var_ok. destruct (sheet_index env None); [|reflexivity]. rewrite get_defined_name_eq, is_table_eq. reflexivity. Qed.
  Lemma ident_free_eq name : ident_free nm1 env name = ident_free nm2 env name.
  Proof. unfold ident_free. destruct (sheet_index env None); [|reflexivity]. rewrite get_defined_name_eq, is_table_eq. reflexivity. Qed.
  Lemma param_ok_eq p : param_ok m1 nm1 env p = param_ok m2 nm2 env p.
  Proof. unfold param_ok, param_ident. rewrite Hx, ident_free_eq. reflexivity. Qed.
  Lemma params_ok_eq ps : forallb (param_ok m1 nm1 env) ps = forallb (param_ok m2 nm2 env) ps.
  Proof. induction ps as [|p ps IH]; cbn [forallb]; [reflexivity|]. rewrite param_ok_eq, IH. reflexivity. Qed.

  (* Conjunct by conjunct: what [image_at] asks in the second configuration is asked by it in the
     first (and does not depend on the configuration, or carries over by a hypothesis of this
     section), is asked by [names_ok], or is the induction hypothesis. *)
  Theorem image_transfer e : forall arg,
    image_at m1 nm1 env arg e = true -> names_ok m2 nm2 e = true -> image_at m2 nm2 env arg e = true.
  Proof.
    induction e using ast_rect'; intros arg Hi Hn; cbn [image_at names_ok] in *;
      try (destruct rows as [|r0 rows']; [discriminate Hi|]);
      try (destruct (sheet_index env None); [|discriminate Hi]);
      rewrite <- ?params_ok_eq, <- ?get_defined_name_eq, <- ?is_table_eq, <- ?var_ok_eq;
      rewrite ?andb_true_iff, ?forallb_forall, ?Forall_forall in *; intuition eauto.
  Qed.

  (* typed in the first configuration, shown in the second and re-entered there: the same tree *)
  Theorem roundtrip_transfer e :
    image m1 nm1 env e = true -> names_ok m2 nm2 e = true ->
    no_bad (pm_xlsx m2) e = true -> lower_stable nm2 e = true ->
    parse m2 nm2 env (print m2 nm2 e) = Some (e, []).
  Proof. intros Hi Hn. apply roundtrip_parse. exact (image_transfer e false Hi Hn). Qed.
End Transfer.

(* names_ok is the names-dependent part of image: every conjunct of it is one of image's *)
Lemma image_names_ok m nm env e : forall arg, image_at m nm env arg e = true -> names_ok m nm e = true.
Proof.
  induction e using ast_rect'; intros arg Hi; cbn [image_at names_ok] in *;
    try (destruct rows as [|r0 rows']; [discriminate Hi|]);
    rewrite ?andb_true_iff, ?forallb_forall, ?Forall_forall in *; intuition eauto.
Qed.

(* ---- between two languages / locales, at the same cell ---------------------------------------- *)
Theorem cross_language l1 dot1 l2 dot2 row col env e :
  image (m_display dot1 row col) (names_of l1) env e = true ->
  names_ok (m_display dot2 row col) (names_of l2) e = true ->
  no_bad false e = true -> lower_stable (names_of l2) e = true ->
  parse (m_display dot2 row col) (names_of l2) env (print (m_display dot2 row col) (names_of l2) e) = Some (e, []).
Proof. apply roundtrip_transfer; intros; reflexivity || assumption. Qed.

(* the stored form is language independent: a tree typed in any language reads back from its
   stored (English R1C1) text when its names are fine in English *)
Theorem stored_form_language_independent l1 dot1 row col env e :
  image (m_display dot1 row col) (names_of l1) env e = true ->
  names_ok Persist.m_rc1 (names_of 0) e = true ->
  no_bad false e = true -> lower_stable (names_of 0) e = true ->
  parse Persist.m_rc1 (names_of 0) env (print Persist.m_rc1 (names_of 0) e) = Some (e, []).
Proof. apply roundtrip_transfer; intros; reflexivity. Qed.

(* ---- set_language / set_locale leave what is stored untouched --------------------------------- *)
Section SwitchProofs.
  Variable C : Type.
  Variable valid_locale valid_lang : text -> bool.
  Variable evaluate : list (list text) -> list (text * option Z * text) -> text -> text -> C -> C.

  Theorem set_language_stores id (m m' : lmodel C) :
    set_language C valid_lang id m = Ok m' ->
    stored C m' = stored C m /\ l_cells m' = l_cells m /\ l_locale m' = l_locale m /\
    l_settings_locale m' = l_settings_locale m /\ l_language m' = id.
  Proof. unfold set_language. destruct (valid_lang id); cbn [negb]; [|discriminate]. intro H. injection H as <-. repeat split. Qed.

  Theorem set_locale_stores id (m m' : lmodel C) :
    set_locale C valid_locale evaluate id m = Ok m' ->
    stored C m' = stored C m /\ l_language m' = l_language m /\ l_locale m' = id /\ l_settings_locale m' = id /\
    l_cells m' = evaluate (l_formulas m) (l_defnames m) id (l_language m) (l_cells m).
  Proof. unfold set_locale. destruct (valid_locale id); cbn [negb]; [|discriminate]. intro H. injection H as <-. repeat split. Qed.

  Theorem switch_failure_changes_nothing id (m : lmodel C) :
    (valid_lang id = false -> set_language C valid_lang id m = Err) /\
    (valid_locale id = false -> set_locale C valid_locale evaluate id m = Err).
  Proof. unfold set_language, set_locale. split; intros ->; reflexivity. Qed.
End SwitchProofs.

(* ---- texts that parse differently in the active language and in English ----------------------- *)
Theorem collisions_exact lang f g : In lang all_langs -> (f < Tables_c23.n_fn)%nat ->
  (In (lang, f, g) collisions <-> Names.lookup lang (Names.localized 0 f) = Some g /\ g <> f).
Proof.
  intros Hl Hf. unfold collisions, collisions_of. rewrite in_flat_map. split.
  - intros (l' & _ & (x & _ & H)%in_flat_map).
    destruct (Names.lookup l' (Names.localized 0 x)) as [g'|] eqn:E; [|destruct H].
    destruct (Nat.eqb_spec g' x) as [|N]; [destruct H|]. destruct H as [[= <- <- <-]|[]]. exact (conj E N).
  - intros [E N%Nat.eqb_neq]. exists lang. split; [exact Hl|]. apply in_flat_map. exists f.
    split; [apply in_seq; lia|]. rewrite E, N. left. reflexivity.
Qed.

(* Both lists have the shape [triples look]. They are computed with the lookups going through the
   first-character index, built once per table, on the upper-cased names the tables give. *)
Definition triples (look : nat -> nat -> option nat) : list (nat * nat * nat) :=
  flat_map (fun lang => let lk := look lang in
                        flat_map (fun f => match lk f with
                                           | Some g => if Nat.eqb g f then [] else [(lang, f, g)]
                                           | None => []
                                           end) (seq 0 Tables_c23.n_fn)) all_langs.

Lemma triples_ext look look' :
  (forall lang f, In lang all_langs -> (f < Tables_c23.n_fn)%nat -> look lang f = look' lang f) ->
  triples look = triples look'.
Proof.
  intro H. unfold triples. rewrite !flat_map_concat_map. f_equal. apply map_ext_in. intros lang Hl. cbv zeta.
  rewrite !flat_map_concat_map. f_equal. apply map_ext_in. intros f Hf%in_seq. rewrite (H lang f Hl) by lia. reflexivity.
Qed.

Definition fast_lookup (l : nat) : text -> option nat :=
  let tbl := Names.lookup_tbl l in let ix := NamesProofs.index NamesProofs.capitals tbl in NamesProofs.first_eq_ix ix tbl.

Lemma fast_lookup_ok l lang f : In lang all_langs -> (f < Tables_c23.n_fn)%nat ->
  Names.lookup l (Names.localized lang f) = fast_lookup l (Names.localized_upper lang f).
Proof.
  intros Hl%in_seq Hf. unfold Names.lookup, fast_lookup. cbv zeta.
  rewrite NamesProofs.first_eq_ix_ok, NamesProofs.upper_table by lia. reflexivity.
Qed.

(* the list, computed from the generated tables: French TRIM is MIRR (English TRIM is SUPPRESPACE there) *)
Lemma collisions_value : collisions = [(3, 137, 222)]%nat.
Proof.
  transitivity (triples (fun lang f => Names.lookup lang (Names.localized 0 f)));
    [unfold collisions, collisions_of, triples; reflexivity|].
  rewrite (triples_ext _ (fun lang => let lk := fast_lookup lang in fun f => lk (Names.localized_upper 0 f)));
    [vm_compute; reflexivity|].
  intros lang f Hl Hf. apply fast_lookup_ok; [apply in_seq; pose proof NamesProofs.sizes; lia | exact Hf].
Qed.
Lemma collisions_rev_value : collisions_rev = [(3, 222, 137)]%nat.
Proof.
  transitivity (triples (fun lang f => Names.lookup 0 (Names.localized lang f)));
    [unfold collisions_rev, collisions_rev_of, triples; reflexivity|].
  rewrite (triples_ext _ (let lk := fast_lookup 0 in fun lang f => lk (Names.localized_upper lang f)));
    [vm_compute; reflexivity|].
  intros lang f Hl Hf. apply fast_lookup_ok; assumption.
Qed.
Lemma collision_names :
  nth 3 Tables_c23.languages [] = [102; 114] /\ nth 137 Tables_c23.fn_variants [] = [84; 114; 105; 109] /\
  nth 222 Tables_c23.fn_variants [] = [77; 105; 114; 114] /\ Names.localized 0 137 = [84; 82; 73; 77] /\ Names.localized 3 222 = [84; 82; 73; 77].
Proof. vm_compute. repeat split. Qed.

(* the English boolean literals are read as booleans only in English *)
Lemma english_booleans_elsewhere : map bool_reads_as_bool all_langs = [true; false; false; false; false].
Proof. vm_compute. reflexivity. Qed.

(* the comma-decimal locales (F60 applies there) *)
Lemma mismatch_locales : map row_sep_mismatch all_locales = [true; false; false; true; true; true].
Proof. vm_compute. reflexivity. Qed.

(* non-vacuity of cross_language: =SUM(1.5,A1)&IF(TRUE,"x") typed in English at C3, shown in German (comma locale) *)
Module Example.
  Definition env1 : penv := {| pe_sheets := [[83]]; pe_ctx_sheet := [83]; pe_defnames := []; pe_tables := [] |}.
  Definition a1 := ERef None (Some 0) {| p_row := -2; p_col := -2; p_abs_col := false; p_abs_row := false |}.
  Definition e1 : ast := EConcat (EFun 80 [ENum [49; 46; 53]; a1]) (EFun 2 [EBool true; EStr [120]]).
  Lemma cross_premises :
    image (m_display true 3 3) (names_of 0) env1 e1 = true /\ names_ok (m_display false 3 3) (names_of 1) e1 = true /\
    no_bad false e1 = true /\ lower_stable (names_of 1) e1 = true.
  Proof. vm_compute. repeat split. Qed.
End Example.

(* ---- the cross-language statement is false where the tables are not clean: witnesses ------------ *)
Module Refuted.
  Definition env1 := Example.env1.
  (* F40: Spanish XNPV and RECEIVED share a name *)
  Definition w_shadowed : ast := EFun 225 [ENum [49]].
  Lemma shadowed_refutes :
    image (m_display true 3 3) (names_of 0) env1 w_shadowed = true /\
    parse (m_display false 3 3) (names_of 2) env1 (print (m_display false 3 3) (names_of 2) w_shadowed) <> Some (w_shadowed, []).
  Proof. split; [vm_compute; reflexivity | vm_compute; discriminate]. Qed.
  (* F61: an error literal is shown with its English name, which German does not read *)
  Definition w_error : ast := ESum SAdd (EErr 2) (ENum [49]).
  Lemma error_refutes :
    image (m_display true 3 3) (names_of 0) env1 w_error = true /\
    parse (m_display false 3 3) (names_of 1) env1 (print (m_display false 3 3) (names_of 1) w_error) <> Some (w_error, []).
  Proof. split; [vm_compute; reflexivity | vm_compute; discriminate]. Qed.
  (* F60: a two-row array shown in a comma-decimal locale (any language) *)
  Definition w_array : ast := EArray [[ANum false [49]]; [ANum false [50]]].
  Lemma array_refutes :
    image (m_display true 3 3) (names_of 0) env1 w_array = true /\
    parse (m_display false 3 3) (names_of 0) env1 (print (m_display false 3 3) (names_of 0) w_array) <> Some (w_array, []).
  Proof. split; [vm_compute; reflexivity | vm_compute; discriminate]. Qed.
  (* a user function called like a built-in of the other language: summe(1) typed in English *)
  Definition w_user : ast := ENamedFun None [115; 117; 109; 109; 101] [ENum [49]].
  Lemma user_refutes :
    image (m_display true 3 3) (names_of 0) env1 w_user = true /\
    parse (m_display false 3 3) (names_of 1) env1 (print (m_display false 3 3) (names_of 1) w_user) <> Some (w_user, []).
  Proof. split; [vm_compute; reflexivity | vm_compute; discriminate]. Qed.
End Refuted.


(* ---- conditional-format rules ---------------------------------------------------------------------
   A rule whose every formula slot is the display text (active configuration) of a tree inside the
   proved part is stored with every slot in English: the stored slots are the English prints of the
   same trees, slot by slot, for every rule kind. *)
Section CfProofs.
  Variable m_act : pmode.  Variable nm_act : names.
  Variable m_en : pmode.   Variable nm_en : names.
  Variable env : penv.
  Notation to_int := (user_formula_to_internal m_act nm_act m_en nm_en env).

  (* a typed slot: the active display print of a tree the active parser returns *)
  Definition slot_ok (ts : list token) (e : ast) : Prop :=
    image m_act nm_act env e = true /\ no_bad (pm_xlsx m_act) e = true /\ lower_stable nm_act e = true /\
    ts = print m_act nm_act e.

  Lemma to_internal_slot ts e : slot_ok ts e -> to_int ts = Ok (print m_en nm_en e).
  Proof.
    intros (Hi & Hb & Hl & ->). unfold user_formula_to_internal.
    rewrite (roundtrip_parse m_act nm_act env e Hi Hb Hl). reflexivity.
  Qed.

  Lemma cfvos_slots_internal (l : list cfvo) (es : list ast) :
    Forall2 slot_ok (cfvo_slots l) es ->
    exists l', cfvos_to_internal m_act nm_act m_en nm_en env l = Ok l' /\ cfvo_slots l' = map (print m_en nm_en) es.
  Proof.
    revert es. induction l as [|c l IH]; intros es H; cbn [cfvo_slots flat_map] in H.
    - inversion H; subst. exists []. split; reflexivity.
    - destruct c as [f|t]; cbn [app] in H.
      + inversion H as [|ts e l0 es' Hs Hr]; subst. destruct (IH es' Hr) as (l' & E & S).
        exists (CvFormula (print m_en nm_en e) :: l'). cbn [cfvos_to_internal cfvo_to_internal obind].
        rewrite (to_internal_slot _ _ Hs). cbn [obind]. rewrite E. cbn [obind]. split; [reflexivity|].
        cbn [cfvo_slots flat_map app map]. fold (cfvo_slots l'). rewrite S. reflexivity.
      + destruct (IH es H) as (l' & E & S). exists (CvOther t :: l').
        cbn [cfvos_to_internal cfvo_to_internal obind]. rewrite E. cbn [obind]. split; [reflexivity|].
        cbn [cfvo_slots flat_map app]. exact S.
  Qed.

  Theorem cf_rule_stored_in_english (r : cf_input) (es : list ast) :
    Forall2 slot_ok (cf_slots r) es ->
    exists r', cf_rule_input_to_internal m_act nm_act m_en nm_en env r = Ok r' /\
               cf_slots r' = map (print m_en nm_en) es.
  Proof.
    destruct r as [f f2|f|ts|mn mx|ts|ts|t]; cbn [cf_slots]; intro H.
    3, 5, 6: (* the kinds with a list of thresholds *)
      destruct (cfvos_slots_internal ts es H) as (l' & E & S); eexists;
      cbn [cf_rule_input_to_internal]; rewrite E; cbn [obind]; split; [reflexivity | exact S].
    - inversion H as [|ts0 e l0 es' Hs Hr]; subst. destruct f2 as [g|]; cbn [opt_list] in Hr.
      + inversion Hr as [|ts1 e2 l1 es2 Hs2 Hr2]; subst. inversion Hr2; subst.
        eexists. cbn [cf_rule_input_to_internal obind opt_to_internal].
        rewrite (to_internal_slot _ _ Hs). cbn [obind]. rewrite (to_internal_slot _ _ Hs2). cbn [obind]. split; reflexivity.
      + inversion Hr; subst. eexists. cbn [cf_rule_input_to_internal obind opt_to_internal].
        rewrite (to_internal_slot _ _ Hs). cbn [obind]. split; reflexivity.
    - inversion H as [|ts0 e l0 es' Hs Hr]; subst. inversion Hr; subst. eexists.
      cbn [cf_rule_input_to_internal obind]. rewrite (to_internal_slot _ _ Hs). cbn [obind]. split; reflexivity.
    - (* DataBar: min and max are optional thresholds *)
      destruct (cfvos_slots_internal (opt_list mn ++ opt_list mx) es H) as (l' & E & S).
      destruct mn as [a|], mx as [b|]; cbn [opt_list app cfvos_to_internal] in E;
        cbn [cf_rule_input_to_internal opt_to_internal obind].
      + destruct (cfvo_to_internal _ _ _ _ _ a) as [a'| |]; cbn [obind] in E |- *; try discriminate E.
        destruct (cfvo_to_internal _ _ _ _ _ b) as [b'| |]; cbn [obind] in E |- *; try discriminate E.
        injection E as <-. exists (CfDataBar (Some a') (Some b')). split; [reflexivity | exact S].
      + destruct (cfvo_to_internal _ _ _ _ _ a) as [a'| |]; cbn [obind] in E |- *; try discriminate E.
        injection E as <-. exists (CfDataBar (Some a') None). split; [reflexivity | exact S].
      + destruct (cfvo_to_internal _ _ _ _ _ b) as [b'| |]; cbn [obind] in E |- *; try discriminate E.
        injection E as <-. exists (CfDataBar None (Some b')). split; [reflexivity | exact S].
      + injection E as <-. exists (CfDataBar None None). split; [reflexivity | exact S].
    - inversion H; subst. exists (CfOther t). split; reflexivity.
  Qed.
End CfProofs.

(* non-vacuity: CellIs Between, bounds =SUMME(A1;1,5) and =MAX(2,5;0) typed in German with a comma locale at A1 *)
Module CfExample.
  Definition a1 := ERef None (Some 0) {| p_row := 0; p_col := 0; p_abs_col := false; p_abs_row := false |}.
  Definition b1 : ast := EFun 80 [a1; ENum [49; 46; 53]].
  Definition b2 : ast := EFun 70 [ENum [50; 46; 53]; ENum [48]].
  Definition de11 := m_display false 1 1.
  Definition en11 := m_display true 1 1.
  Definition rule := CfCellIs (print de11 (names_of 1) b1) (Some (print de11 (names_of 1) b2)).
  Lemma slots_ok : Forall2 (slot_ok de11 (names_of 1) Example.env1) (cf_slots rule) [b1; b2].
  Proof. repeat constructor; vm_compute; reflexivity. Qed.
  Lemma stored :
    cf_rule_input_to_internal de11 (names_of 1) en11 (names_of 0) Example.env1 rule
    = Ok (CfCellIs (print en11 (names_of 0) b1) (Some (print en11 (names_of 0) b2))).
  Proof. vm_compute. reflexivity. Qed.
End CfExample.
