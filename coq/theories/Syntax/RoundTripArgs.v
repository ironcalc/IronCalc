(* Syntax/RoundTripArgs.v — round-trip proof: argument lists ([parse_function_args]). *)
From IronCalc Require Import Base.Prelude Codec.RefA1 Syntax.Token Syntax.Ast Syntax.Printer Syntax.Parser
  Syntax.Shape Syntax.RoundTripLevels Syntax.RoundTripNodes.
Local Open Scope nat_scope.

Lemma startb_not_rparen t : startb t = true -> is_rparen t = false.
Proof. destruct t; try reflexivity; discriminate. Qed.

Section ArgsMain.
  Variable m : pmode.
  Variable nm : names.
  Variable env : penv.
  Variable pol : policy.
  Notation pr := (gprint m nm pol).

  Section Args.
    Variable rec : list token -> presult.
    Variable rest : list token.
    Notation sepk := (sep_token (parse_arg_sep m)).

    (* what follows the first argument: ", a2 , a3 ... )" *)
    Definition tail_tokens (tl : list ast) : list token :=
      flat_map (fun y => sepk :: y) (map pr tl) ++ TRParen :: rest.

    Lemma tail_tokens_cons a tl : tail_tokens (a :: tl) = sepk :: pr a ++ tail_tokens tl.
    Proof. unfold tail_tokens. cbn [map flat_map]. rewrite <- app_assoc. reflexivity. Qed.

    Lemma tail_tokens_follow tl : follow 8 (tail_tokens tl).
    Proof. destruct tl; [exact I|]. rewrite tail_tokens_cons. apply arg_sep_follow. Qed.

    (* an argument is EmptyArg, or a tree whose text starts like an operand and that [rec] reads back *)
    Definition arg_good (a : ast) : Prop :=
      a = EEmpty \/
      ((exists t r, pr a = t :: r /\ startb t = true) /\
       forall rest', follow 8 rest' -> rec (pr a ++ rest') = Some (a, rest')).

    Lemma args_loop_ok : forall tl acc f,
      length tl < f -> Forall arg_good tl ->
      args_loop m rec f acc (tail_tokens tl) = Some (acc ++ tl, TRParen :: rest).
    Proof.
      induction tl as [|a tl IH]; intros acc f Hf Hg; (destruct f; [cbn in Hf; lia|]).
      - rewrite app_nil_r. cbn [tail_tokens map flat_map app args_loop]. destruct (parse_arg_sep m); reflexivity.
      - inversion Hg as [|? ? Ha Htl]; subst. cbn [length] in Hf.
        replace (acc ++ a :: tl) with ((acc ++ [a]) ++ tl) by (rewrite <- app_assoc; reflexivity).
        rewrite tail_tokens_cons. cbn [args_loop]. rewrite is_sep_sep_token.
        destruct Ha as [->|[(t & r & Hpr & Hst) Hrec]].
        + (* an empty argument: the next token is a separator or ")" *)
          cbn [gprint app]. destruct tl as [|a' tl'].
          * rewrite app_nil_r. cbn [tail_tokens map flat_map app]. destruct (parse_arg_sep m); reflexivity.
          * rewrite tail_tokens_cons, is_sep_sep_token, <- tail_tokens_cons. apply IH; [lia|exact Htl].
        + rewrite Hpr. cbn [app]. rewrite (startb_not_sep m t Hst), (startb_not_rparen t Hst).
          change (t :: r ++ tail_tokens tl) with ((t :: r) ++ tail_tokens tl).
          rewrite <- Hpr, Hrec by apply tail_tokens_follow. apply IH; [lia|exact Htl].
    Qed.

    (* [parse_function_args] treats the first argument like the loop treats the others, except
       that it returns no argument at all when ")" comes at once *)
    Lemma parse_function_args_loop f ts :
      match ts with TRParen :: _ => False | _ => True end ->
      parse_function_args m rec f ts = args_loop m rec (S f) [] (sepk :: ts).
    Proof.
      intro H. cbn [args_loop]. rewrite is_sep_sep_token.
      destruct ts as [|[] ?]; try contradiction; reflexivity.
    Qed.

    Lemma parse_args_ok args f :
      length args < f -> args_shape_ok args = true -> Forall arg_good args ->
      parse_function_args m rec f (join sepk (map pr args) ++ TRParen :: rest) = Some (args, TRParen :: rest).
    Proof.
      intros Hf Hshape Hg. destruct args as [|a tl]; [reflexivity|].
      cbn [map]. rewrite join_flat. fold (tail_tokens tl). rewrite parse_function_args_loop.
      - rewrite <- tail_tokens_cons. apply (args_loop_ok (a :: tl) []); [lia|exact Hg].
      - inversion Hg as [|? ? [->|[(t & r & Hpr & Hst) _]] _]; subst.
        + destruct tl; [discriminate Hshape|]. rewrite tail_tokens_cons. cbn [gprint app].
          destruct (parse_arg_sep m); exact I.
        + rewrite Hpr. destruct t; try exact I. discriminate Hst.
    Qed.

    Lemma args_then_rparen_ok args f :
      length args < f -> args_shape_ok args = true -> Forall arg_good args ->
      args_then_rparen m rec f (join sepk (map pr args) ++ TRParen :: rest) = Some (args, rest).
    Proof. intros. unfold args_then_rparen. rewrite parse_args_ok by assumption. reflexivity. Qed.
  End Args.
End ArgsMain.
