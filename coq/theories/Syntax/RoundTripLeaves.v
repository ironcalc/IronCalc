(* Syntax/RoundTripLeaves.v — round-trip proof: references and ranks. *)
From IronCalc Require Import Base.Prelude Codec.RefA1 Syntax.Token Syntax.Ast Syntax.Printer Syntax.Parser
  Syntax.Shape.
Local Open Scope nat_scope.

Lemma opt_z_eqb_eq a b : opt_z_eqb a b = true -> a = b.
Proof. destruct a, b; try discriminate; [|reflexivity]. intro H. apply Z.eqb_eq in H. congruence. Qed.

Section Leaves.
  Variable m : pmode.

  (* ---- references ------------------------------------------------------------------------- *)
  Lemma parse_print_pref p q : print_pref m p = Some q -> parse_pref m q = p.
  Proof.
    unfold print_pref, parse_pref. destruct (pm_rc m); [intro H; inversion H; reflexivity|].
    destruct p as [r c ac ar]. cbn [p_row p_col p_abs_col p_abs_row].
    destruct (_ || _); [discriminate|]. intro H; inversion H; subst; clear H.
    cbn [p_row p_col p_abs_col p_abs_row]. destruct ar, ac; f_equal; lia.
  Qed.

  Lemma parse_range_ok p1 p2 : range_ok m p1 p2 = true ->
    exists q1 q2, print_pref m p1 = Some q1 /\ print_pref m p2 = Some q2 /\ parse_range_prefs m q1 q2 = (p1, p2).
  Proof.
    unfold range_ok. destruct (print_pref m p1) as [q1|] eqn:E1; [|discriminate].
    destruct (print_pref m p2) as [q2|] eqn:E2; [|discriminate].
    intro H. exists q1, q2. split; [reflexivity|]. split; [reflexivity|].
    apply parse_print_pref in E1, E2. unfold parse_range_prefs, parse_pref in *. destruct (pm_rc m).
    - congruence.
    - (* the corners are in order: nothing is swapped *)
      cbn [orb] in H. apply andb_true_iff in H as [Hr Hc]. apply Z.leb_le in Hr, Hc.
      destruct (Z.ltb_spec (p_row q2) (p_row q1)); [lia|]. destruct (Z.ltb_spec (p_col q2) (p_col q1)); [lia|].
      destruct q1 as [r1 c1 ac1 ar1], q2 as [r2 c2 ac2 ar2]. cbn [p_row p_col p_abs_col p_abs_row] in *. congruence.
  Qed.

  (* ---- ranks -------------------------------------------------------------------------------- *)
  Lemma rank_le_8 e : rank e <= 8.
  Proof. destruct e; cbn; lia. Qed.

  Lemma rank_x_false e : rank_x false e = rank e.
  Proof. destruct e; reflexivity. Qed.

  Lemma rank_x_le b e : rank_x b e <= rank e.
  Proof. destruct e; destruct b; cbn; lia. Qed.

  Lemma rank_x_le_8 b e : rank_x b e <= 8.
  Proof. pose proof (rank_x_le b e). pose proof (rank_le_8 e). lia. Qed.
End Leaves.
