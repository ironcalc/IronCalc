(* Syntax/DisplaceProofs.v — theorems about the models of Syntax/Displace.v (all unbounded:
   every anchor, every reference, every position, every count).
   The arithmetic lives on one coordinate: [line_map] (insert/delete), [single_move], [block_move]
   are piecewise translations, each characterised once, piece by piece; what is said about
   positions, printed references and whole rewrites is read off these characterisations.
   [displace] is [displace_pos] followed by the grid test; on the edited sheet [displace_pos] is
   [cell_map]; the whole rewrite [apply_disp_full] is [displace] seen from the moved anchor. *)
From IronCalc Require Import Base.Prelude Base.Dec Codec.Column Codec.ColumnProofs
  Codec.RefA1 Codec.RefA1Proofs Syntax.Displace.

Lemma valid_col_true c : 1 <= c <= LAST_COLUMN -> is_valid_column_number c = true.
Proof. intro H. apply valid_range. exact H. Qed.

Lemma valid_col_false c : c < 1 \/ LAST_COLUMN < c -> is_valid_column_number c = false.
Proof.
  intro H. destruct (is_valid_column_number c) eqn:E; [|reflexivity].
  apply valid_range in E. unfold LAST_COLUMN in *. lia.
Qed.

(* a line that survives either lies before the edit and stays, or lies at/after it and is
   translated by [delta], landing at/after it again; the deleted band is what is left *)
Lemma line_map_spec x r delta :
  match line_map x r delta with
  | Some y => x < r /\ y = x \/ r <= x /\ r <= y /\ y = x + delta
  | None => delta < 0 /\ r <= x < r - delta
  end.
Proof.
  unfold line_map. cbv zeta. destruct (Z.ltb_spec 0 delta).
  - destruct (Z.leb_spec r x); lia.
  - destruct (Z.ltb_spec x r); [lia|]. destruct (Z.ltb_spec x (r + - delta)); lia.
Qed.

Lemma line_map_ins x r k : 0 < k -> line_map x r k = Some (if r <=? x then x + k else x).
Proof. intro H. unfold line_map. destruct (Z.ltb_spec 0 k); [|lia]. destruct (r <=? x); reflexivity. Qed.

Lemma line_map_del x r k :
  0 <= k ->
  line_map x r (- k) = if x <? r then Some x else if x <? r + k then None else Some (x - k).
Proof.
  intro H. unfold line_map. cbv zeta. destruct (Z.ltb_spec 0 (- k)); [lia|].
  rewrite Z.opp_involutive. reflexivity.
Qed.

Lemma line_map_del_before x r k : 0 <= k -> x < r -> line_map x r (- k) = Some x.
Proof. intros Hk H. rewrite line_map_del by exact Hk. destruct (Z.ltb_spec x r); [reflexivity|lia]. Qed.

Lemma line_map_del_inside x r k : 0 <= k -> r <= x < r + k -> line_map x r (- k) = None.
Proof.
  intros Hk H. rewrite line_map_del by exact Hk. destruct (Z.ltb_spec x r); [lia|].
  destruct (Z.ltb_spec x (r + k)); [reflexivity|lia].
Qed.

Lemma line_map_del_after x r k : 0 <= k -> r + k <= x -> line_map x r (- k) = Some (x - k).
Proof.
  intros Hk H. rewrite line_map_del by exact Hk. destruct (Z.ltb_spec x r); [lia|].
  destruct (Z.ltb_spec x (r + k)); [lia|reflexivity].
Qed.

Lemma ins_line_bounds x r k : 0 < k -> x <= (if r <=? x then x + k else x) <= x + k.
Proof. intro H. destruct (r <=? x); lia. Qed.

Lemma line_map_injective x y r delta z :
  line_map x r delta = Some z -> line_map y r delta = Some z -> x = y.
Proof.
  intros Hx Hy. pose proof (line_map_spec x r delta) as Sx. pose proof (line_map_spec y r delta) as Sy.
  rewrite Hx in Sx. rewrite Hy in Sy. lia.
Qed.

(* the reference arithmetic and the cell relocation are the same function *)
Lemma shift_line_is_line_map x r delta : shift_line x r delta = line_map x r delta.
Proof.
  unfold shift_line, line_map. cbv zeta.
  destruct (Z.ltb_spec delta 0), (Z.ltb_spec 0 delta); try lia; try reflexivity;
    destruct (Z.leb_spec r x), (Z.ltb_spec x r); try lia; try reflexivity.
  - destruct (Z.ltb_spec x (r - delta)), (Z.ltb_spec x (r + - delta)); try lia; [reflexivity|].
    f_equal; lia.
  - destruct (Z.ltb_spec x (r + - delta)); [lia|]. f_equal; lia.
Qed.

Lemma single_move_spec i d x :
  (x = i /\ single_move i d x = x + d) \/
  (0 < d /\ i < x <= i + d /\ single_move i d x = x - 1) \/
  (d < 0 /\ i + d <= x < i /\ single_move i d x = x + 1) \/
  ((x < i /\ x < i + d \/ i < x /\ i + d < x) /\ single_move i d x = x).
Proof.
  unfold single_move. destruct (Z.eqb_spec x i); [lia|].
  destruct (Z.ltb_spec 0 d).
  - destruct (Z.ltb_spec i x), (Z.leb_spec x (i + d)); cbn [andb]; lia.
  - destruct (Z.ltb_spec d 0); [|lia].
    destruct (Z.ltb_spec x i), (Z.leb_spec (i + d) x); cbn [andb]; lia.
Qed.

Lemma block_move_spec i n d x :
  0 <= n ->
  (i <= x < i + n /\ block_move i n d x = x + d) \/
  (0 < d /\ i + n <= x < i + n + d /\ block_move i n d x = x - n) \/
  (d < 0 /\ i + d <= x < i /\ block_move i n d x = x + n) \/
  ((x < i /\ x < i + d \/ i + n <= x /\ i + n + d <= x) /\ block_move i n d x = x).
Proof.
  intro Hn. unfold block_move.
  destruct (Z.leb_spec i x), (Z.ltb_spec x (i + n)); cbn [andb]; [lia|..];
    (destruct (Z.ltb_spec 0 d);
     [destruct (Z.leb_spec (i + n) x), (Z.ltb_spec x (i + n + d)); cbn [andb]; lia
     |destruct (Z.ltb_spec d 0); [|lia];
      destruct (Z.leb_spec (i + d) x), (Z.ltb_spec x i); cbn [andb]; lia]).
Qed.

(* one line: a bijection of Z (hence of [1, last]) whose inverse is the opposite move *)
Theorem single_move_inverse i d x : single_move (i + d) (- d) (single_move i d x) = x.
Proof.
  pose proof (single_move_spec i d x). pose proof (single_move_spec (i + d) (- d) (single_move i d x)). lia.
Qed.

Theorem single_move_inverse' i d y : single_move i d (single_move (i + d) (- d) y) = y.
Proof.
  pose proof (single_move_spec (i + d) (- d) y). pose proof (single_move_spec i d (single_move (i + d) (- d) y)).
  lia.
Qed.

Theorem single_move_injective i d x y : single_move i d x = single_move i d y -> x = y.
Proof.
  intro H. rewrite <- (single_move_inverse i d x), <- (single_move_inverse i d y), H. reflexivity.
Qed.

Theorem single_move_range last i d x :
  1 <= i <= last -> 1 <= i + d <= last -> 1 <= x <= last -> 1 <= single_move i d x <= last.
Proof. pose proof (single_move_spec i d x). lia. Qed.

(* the move touches nothing outside [min i (i+d), max i (i+d)] *)
Theorem single_move_outside i d x :
  (x < i /\ x < i + d) \/ (i < x /\ i + d < x) -> single_move i d x = x.
Proof. pose proof (single_move_spec i d x). lia. Qed.

(* the loop of move_rows_action/move_columns_action IS the block permutation; the order
   (last line first when moving down, first line first when moving up) is what makes it so *)
Lemma block_move_step_down i n d x :
  0 <= n -> 0 < d -> block_move i (n + 1) d x = block_move i n d (single_move (i + n) d x).
Proof.
  intros Hn Hd. pose proof (single_move_spec (i + n) d x).
  pose proof (block_move_spec i (n + 1) d x). pose proof (block_move_spec i n d (single_move (i + n) d x)).
  lia.
Qed.

Lemma block_move_step_up i n d x :
  0 <= n -> d <= 0 -> block_move i (n + 1) d x = block_move (i + 1) n d (single_move i d x).
Proof.
  intros Hn Hd. pose proof (single_move_spec i d x).
  pose proof (block_move_spec i (n + 1) d x). pose proof (block_move_spec (i + 1) n d (single_move i d x)).
  lia.
Qed.

Lemma block_move_empty i d x : block_move i 0 d x = x.
Proof. pose proof (block_move_spec i 0 d x). lia. Qed.

Lemma iter_last_first_is_block i n d x :
  0 < d -> iter_last_first i n d x = block_move i (Z.of_nat n) d x.
Proof.
  intro Hd. revert x. induction n as [|n IH]; intro x; cbn [iter_last_first].
  - symmetry. apply block_move_empty.
  - rewrite IH, Nat2Z.inj_succ, <- Z.add_1_r, block_move_step_down by lia. reflexivity.
Qed.

Lemma iter_first_first_is_block i n d x :
  d <= 0 -> iter_first_first i n d x = block_move i (Z.of_nat n) d x.
Proof.
  intro Hd. revert i x. induction n as [|n IH]; intros i x; cbn [iter_first_first].
  - symmetry. apply block_move_empty.
  - rewrite IH, Nat2Z.inj_succ, <- Z.add_1_r, block_move_step_up by lia. reflexivity.
Qed.

Theorem iterate_is_block i n d x : iterate_moves i n d x = block_move i (Z.of_nat n) d x.
Proof.
  unfold iterate_moves. destruct (Z.ltb_spec 0 d) as [H|H].
  - apply iter_last_first_is_block. exact H.
  - apply iter_first_first_is_block. exact H.
Qed.

(* the other loop order would NOT be the block move (so the order is load-bearing) *)
Example wrong_order_is_not_block :
  iter_first_first 1 2 1 1 <> block_move 1 2 1 1.
Proof. vm_compute. discriminate. Qed.

(* block moves: inverse (what undo applies), range, locality *)
Theorem block_move_inverse i n d x : 0 <= n -> block_move (i + d) n (- d) (block_move i n d x) = x.
Proof.
  intro Hn. pose proof (block_move_spec i n d x Hn).
  pose proof (block_move_spec (i + d) n (- d) (block_move i n d x) Hn). lia.
Qed.

Theorem block_move_injective i n d x y : 0 <= n -> block_move i n d x = block_move i n d y -> x = y.
Proof.
  intros Hn H. rewrite <- (block_move_inverse i n d x Hn), <- (block_move_inverse i n d y Hn), H.
  reflexivity.
Qed.

Theorem block_move_range last i n d x :
  0 < n -> 1 <= i -> i + n - 1 <= last -> 1 <= i + d -> i + n - 1 + d <= last ->
  1 <= x <= last -> 1 <= block_move i n d x <= last.
Proof. intros. pose proof (block_move_spec i n d x). lia. Qed.

Theorem block_move_cases i n d x :
  0 <= n ->
  (i <= x < i + n -> block_move i n d x = x + d) /\
  (0 < d -> i + n <= x < i + n + d -> block_move i n d x = x - n) /\
  (d < 0 -> i + d <= x < i -> block_move i n d x = x + n) /\
  (x < i -> x < i + d -> block_move i n d x = x) /\
  (i + n <= x -> i + n + d <= x -> block_move i n d x = x).
Proof. intro Hn. pose proof (block_move_spec i n d x Hn). lia. Qed.

(* ranges: when both corners lie in the same region (moved block / shifted band / outside
   both) the whole range is translated rigidly: every cell of it keeps its place inside it *)
Definition same_region (i n d r1 r2 : Z) : Prop :=
  (i <= r1 /\ r2 < i + n) \/
  (0 < d /\ i + n <= r1 /\ r2 < i + n + d) \/
  (d < 0 /\ i + d <= r1 /\ r2 < i) \/
  (r2 < i /\ r2 < i + d) \/
  (i + n <= r1 /\ i + n + d <= r1).

Theorem block_move_range_rigid i n d r1 r2 x :
  0 <= n -> r1 <= r2 -> same_region i n d r1 r2 -> r1 <= x <= r2 ->
  block_move i n d x - block_move i n d r1 = x - r1 /\
  block_move i n d r1 <= block_move i n d x <= block_move i n d r2.
Proof.
  intros Hn H12 Hreg Hx. unfold same_region in Hreg.
  pose proof (block_move_spec i n d x Hn). pose proof (block_move_spec i n d r1 Hn).
  pose proof (block_move_spec i n d r2 Hn). lia.
Qed.

(* ... and a range straddling a region border is NOT translated rigidly (the statement of C15
   excludes such ranges for this reason) *)
Example straddling_range_stretches :
  block_move 3 1 2 3 - block_move 3 1 2 2 <> 3 - 2.
Proof. vm_compute. discriminate. Qed.

(* when the extra line UserModel inspects is hidden and it is the only hidden one, the block
   travels one line further than asked; the two results differ only in where that hidden line
   sits: all other lines keep their relative order *)
Theorem extra_hidden_line_is_invisible i n d x y :
  0 < n -> 0 < d -> x <> i + n + d -> y <> i + n + d ->
  (block_move i n d x < block_move i n d y <-> block_move i n (d + 1) x < block_move i n (d + 1) y).
Proof.
  intros Hn Hd Hx Hy.
  pose proof (block_move_spec i n d x). pose proof (block_move_spec i n d y).
  pose proof (block_move_spec i n (d + 1) x). pose proof (block_move_spec i n (d + 1) y). lia.
Qed.

Definition disp_sheet (d : disp) : option Z :=
  match d with
  | DRow s _ _ | DCol s _ _ | DRowMove s _ _ | DColMove s _ _ => Some s
  | DNone => None
  end.

(* on the edited sheet, unless a full-row/column exemption is in force, the displaced target
   of a reference IS the place its target cell goes (or both are "deleted") *)
Theorem displace_pos_on_sheet d s fr fc p :
  disp_sheet d = Some s ->
  match d with DRow _ _ _ => fr = false | DCol _ _ _ => fc = false | _ => True end ->
  displace_pos d fr fc s p = cell_map d p.
Proof.
  destruct p as [row col]. destruct d; cbn [disp_sheet]; intros [= <-] Hf;
    cbn [displace_pos cell_map]; rewrite Z.eqb_refl, ?Hf; cbn [andb negb];
    rewrite ?shift_line_is_line_map; reflexivity.
Qed.

Corollary displace_pos_is_cell_map d s p :
  disp_sheet d = Some s -> displace_pos d false false s p = cell_map d p.
Proof. intro H. apply displace_pos_on_sheet; [exact H|]. destruct d; constructor. Qed.

Theorem displace_pos_other_sheet d s s' fr fc p :
  disp_sheet d = Some s' -> s <> s' -> displace_pos d fr fc s p = Some p.
Proof.
  destruct p as [row col]. destruct d; cbn [disp_sheet]; intros [= <-] Hne;
    cbn [displace_pos]; rewrite (proj2 (Z.eqb_neq _ _) Hne); reflexivity.
Qed.

Theorem cell_map_injective d p1 p2 q : cell_map d p1 = Some q -> cell_map d p2 = Some q -> p1 = p2.
Proof.
  destruct p1 as [r1 c1], p2 as [r2 c2], q as [qr qc]. destruct d as [s r k|s c k|s i k|s i k|]; cbn [cell_map].
  - destruct (line_map r1 r k) eqn:E1, (line_map r2 r k) eqn:E2; intros [= <- <-] [= <- <-].
    f_equal. exact (line_map_injective _ _ _ _ _ E1 E2).
  - destruct (line_map c1 c k) eqn:E1, (line_map c2 c k) eqn:E2; intros [= <- <-] [= <- <-].
    f_equal. exact (line_map_injective _ _ _ _ _ E1 E2).
  - intros [= <- <-] [= H <-]. f_equal. exact (single_move_injective _ _ _ _ (eq_sym H)).
  - intros [= <- <-] [= <- H]. f_equal. exact (single_move_injective _ _ _ _ (eq_sym H)).
  - intros [= <- <-] [= <- <-]. reflexivity.
Qed.

Definition mkp (row col : Z) (a : aref) : pref :=
  {| p_row := row; p_col := col; p_abs_col := a_abs_col a; p_abs_row := a_abs_row a |}.

(* NB: no upper bound on the row — the code has none *)
Lemma displace_some d fr fc q a row col :
  displace_pos d fr fc (a_sheet a) (resolve q a) = Some (row, col) ->
  1 <= row -> 1 <= col <= LAST_COLUMN -> displace d fr fc q a = Some (mkp row col a).
Proof.
  intros H Hr Hc. unfold displace. rewrite H, valid_col_true by exact Hc.
  destruct (Z.ltb_spec row 1); [lia|reflexivity].
Qed.

Lemma displace_inv d fr fc q a p :
  displace d fr fc q a = Some p ->
  exists row col, displace_pos d fr fc (a_sheet a) (resolve q a) = Some (row, col) /\
                  1 <= row /\ 1 <= col <= LAST_COLUMN /\ p = mkp row col a.
Proof.
  unfold displace. destruct (displace_pos _ _ _ _ _) as [[row col]|]; [|discriminate].
  destruct (Z.ltb_spec row 1); [discriminate|].
  destruct (is_valid_column_number col) eqn:E; [|discriminate]. apply valid_range in E.
  intros [= <-]. exists row, col. unfold LAST_COLUMN. auto.
Qed.

(* a reference into the edited sheet whose target cell goes to a place on the grid is printed
   as that place, flags kept; one whose target cell is deleted is "#REF!" *)
Lemma displace_cell {d s fr fc q a p row col} :
  cell_map d p = Some (row, col) -> a_sheet a = s -> resolve q a = p ->
  disp_sheet d = Some s ->
  match d with DRow _ _ _ => fr = false | DCol _ _ _ => fc = false | _ => True end ->
  1 <= row -> 1 <= col <= LAST_COLUMN ->
  displace d fr fc q a = Some (mkp row col a).
Proof.
  intros Hcm Hs Hres Hd Hf Hr Hc. apply displace_some; [|exact Hr|exact Hc].
  rewrite Hs, Hres, (displace_pos_on_sheet d s fr fc p Hd Hf). exact Hcm.
Qed.

Lemma displace_cell_deleted {d s fr fc q a p} :
  cell_map d p = None -> a_sheet a = s -> resolve q a = p ->
  disp_sheet d = Some s ->
  match d with DRow _ _ _ => fr = false | DCol _ _ _ => fc = false | _ => True end ->
  displace d fr fc q a = None.
Proof.
  intros Hcm Hs Hres Hd Hf. unfold displace.
  rewrite Hs, Hres, (displace_pos_on_sheet d s fr fc p Hd Hf), Hcm. reflexivity.
Qed.

(* a reference to another sheet is left alone (any displacement) *)
Theorem other_sheet_ref_unchanged d s' q a fr fc row col :
  disp_sheet d = Some s' -> a_sheet a <> s' -> resolve q a = (row, col) ->
  1 <= row -> 1 <= col <= LAST_COLUMN ->
  displace d fr fc q a = Some (mkp row col a).
Proof.
  intros Hd Hne Hres Hrow Hcol. apply displace_some; [|exact Hrow|exact Hcol].
  rewrite Hres. exact (displace_pos_other_sheet d _ s' fr fc _ Hd Hne).
Qed.

Lemma resolve_of_pref s q p : resolve q (of_pref s q p) = (p_row p, p_col p).
Proof.
  unfold resolve, of_pref. cbn [a_abs_row a_abs_col a_row a_col].
  destruct (p_abs_row p), (p_abs_col p); f_equal; lia.
Qed.

Lemma of_pref_flags s q p :
  a_abs_row (of_pref s q p) = p_abs_row p /\ a_abs_col (of_pref s q p) = p_abs_col p /\
  a_sheet (of_pref s q p) = s.
Proof. unfold of_pref. cbn. auto. Qed.

(* the string is the A1 print of the displaced reference (no exemption) *)
Lemma displace_text_is_print d q a :
  displace_text d false false q a =
  match displace d false false q a with
  | None => ref_error
  | Some p => match print_a1 (p_row p) (p_col p) (p_abs_row p) (p_abs_col p) with
              | Some t => t | None => ref_error end
  end.
Proof.
  unfold displace_text, displace.
  destruct (displace_pos d false false (a_sheet a) (resolve q a)) as [[row col]|]; [|reflexivity].
  destruct (row <? 1) eqn:E1; [reflexivity|].
  unfold number_to_column.
  destruct (is_valid_column_number col) eqn:E2; [|reflexivity].
  cbn [p_row p_col p_abs_row p_abs_col]. unfold print_a1. rewrite E1.
  unfold number_to_column. rewrite E2. rewrite <- app_assoc. reflexivity.
Qed.

(* ... so on the grid the text reads back as exactly that reference (C22's round trip) *)
Theorem displace_text_reads_back d q a p :
  displace d false false q a = Some p -> p_row p <= LAST_ROW ->
  parse_reference_a1 (displace_text d false false q a) = Some p.
Proof.
  intros H Hr. rewrite displace_text_is_print, H.
  apply displace_inv in H as (row & col & _ & Hr1 & Hc & ->). cbn [mkp p_row p_col p_abs_row p_abs_col] in *.
  destruct (a1_roundtrip row col (a_abs_row a) (a_abs_col a)) as (t & -> & ->); [lia|exact Hc|reflexivity].
Qed.

(* the new stored reference [a'], read from the anchor [q'], points at [target] with the flags
   and the sheet of [a] *)
Definition follows (q' : pos) (a a' : aref) (target : pos) : Prop :=
  resolve q' a' = target /\ a_abs_row a' = a_abs_row a /\ a_abs_col a' = a_abs_col a /\
  a_sheet a' = a_sheet a.

Lemma follows_of_pref q' a row col : follows q' a (of_pref (a_sheet a) q' (mkp row col a)) (row, col).
Proof. unfold follows. rewrite resolve_of_pref. cbn. auto. Qed.

(* a stored reference is determined by its anchor, its target, its flags and its sheet *)
Lemma follows_unique q a a' : follows q a a' (resolve q a) -> a' = a.
Proof.
  destruct a as [sa ar ac abr abc], a' as [sa' ar' ac' abr' abc']. unfold follows, resolve.
  cbn [a_sheet a_row a_col a_abs_row a_abs_col fst snd]. intros ([= Hr Hc] & -> & -> & ->).
  destruct abr, abc; f_equal; lia.
Qed.

(* move_cell keeps the absolute target: the re-typed reference, seen from the new anchor,
   resolves to the same cell with the same flags *)
Theorem rebase_keeps_target q q' a row col :
  resolve q a = (row, col) -> 1 <= row <= LAST_ROW -> 1 <= col <= LAST_COLUMN ->
  exists a', rebase q q' a = Some a' /\ follows q' a a' (row, col).
Proof.
  intros Hres Hr Hc. unfold rebase.
  rewrite (displace_some DNone false false q a row col) by (rewrite ?Hres; (reflexivity || lia)).
  unfold readable. cbn [mkp p_row]. destruct (Z.leb_spec row LAST_ROW); [|lia].
  eexists; split; [reflexivity|apply follows_of_pref].
Qed.

(* the re-typing in the moved cell is transparent: the rewrite is the printed reference of the
   ORIGINAL anchor, read back from the moved one *)
Lemma apply_disp_full_displace d same q q' a row col :
  resolve q a = (row, col) -> 1 <= row <= LAST_ROW -> 1 <= col <= LAST_COLUMN ->
  anchor_map d same q = Some q' ->
  apply_disp_full d same q a =
  match displace d false false q a with
  | None => RwRefError
  | Some p => if readable p then RwRef q' (of_pref (a_sheet a) q' p) else RwUnreadable
  end.
Proof.
  intros Hres Hr Hc Hq. unfold apply_disp_full. rewrite Hq.
  destruct (rebase_keeps_target q q' a row col Hres Hr Hc) as (a' & -> & Hres' & Har & Hac & Hsh).
  unfold displace. rewrite Hres, Hres', Hsh, Har, Hac. reflexivity.
Qed.

Lemma rewrite_follows d same q q' a row col row' col' :
  resolve q a = (row, col) -> 1 <= row <= LAST_ROW -> 1 <= col <= LAST_COLUMN ->
  anchor_map d same q = Some q' ->
  displace d false false q a = Some (mkp row' col' a) -> row' <= LAST_ROW ->
  exists a', apply_disp_full d same q a = RwRef q' a' /\ follows q' a a' (row', col').
Proof.
  intros Hres Hr Hc Hq Hd Hr'. rewrite (apply_disp_full_displace d same q q' a row col), Hd by assumption.
  unfold readable. cbn [mkp p_row]. destruct (Z.leb_spec row' LAST_ROW); [|lia].
  eexists; split; [reflexivity|apply follows_of_pref].
Qed.

(* rows: for EVERY anchor, EVERY stored reference (all four flag combinations) whose target
   is a cell of the grid, the printed reference is the cell [line_map] sends the row to,
   flags kept, and "#REF!" when that row is deleted — insertions and deletions alike.
   [delta < 0 -> 1 <= r] is what delete_rows validates ([edit_valid]) *)
Theorem row_ref s r delta q a fc row col :
  a_sheet a = s -> resolve q a = (row, col) -> 1 <= row -> 1 <= col <= LAST_COLUMN ->
  (delta < 0 -> 1 <= r) ->
  displace (DRow s r delta) false fc q a =
  match line_map row r delta with Some row' => Some (mkp row' col a) | None => None end.
Proof.
  intros Hs Hres Hr Hc Hv. pose proof (line_map_spec row r delta) as S.
  assert (Hcm : cell_map (DRow s r delta) (row, col) =
                match line_map row r delta with None => None | Some row' => Some (row', col) end)
    by reflexivity.
  destruct (line_map row r delta) as [row'|].
  - apply (displace_cell Hcm Hs Hres eq_refl eq_refl); [lia|exact Hc].
  - exact (displace_cell_deleted Hcm Hs Hres eq_refl eq_refl).
Qed.

(* columns: the same, and "#REF!" exactly when pushed beyond the last column *)
Theorem col_ref s c delta q a fr row col :
  a_sheet a = s -> resolve q a = (row, col) -> 1 <= row -> 1 <= col <= LAST_COLUMN ->
  (delta < 0 -> 1 <= c) ->
  match line_map col c delta with
  | Some col' =>
    (col' <= LAST_COLUMN -> displace (DCol s c delta) fr false q a = Some (mkp row col' a)) /\
    (LAST_COLUMN < col' -> displace (DCol s c delta) fr false q a = None)
  | None => displace (DCol s c delta) fr false q a = None
  end.
Proof.
  intros Hs Hres Hr Hc Hv. pose proof (line_map_spec col c delta) as S.
  assert (Hcm : cell_map (DCol s c delta) (row, col) =
                match line_map col c delta with None => None | Some col' => Some (row, col') end)
    by reflexivity.
  destruct (line_map col c delta) as [col'|]; [|exact (displace_cell_deleted Hcm Hs Hres eq_refl eq_refl)].
  split; intro H.
  - apply (displace_cell Hcm Hs Hres eq_refl eq_refl); [exact Hr|lia].
  - unfold displace. rewrite Hs, Hres, (displace_pos_on_sheet _ s) by constructor.
    rewrite Hcm, valid_col_false by (right; exact H). destruct (row <? 1); reflexivity.
Qed.

(* the relative offset is recomputed from the MOVED anchor: when the formula's own cell and
   its target are both at/below the insertion point (or both above) a relative offset is
   unchanged; when only the target moves it grows by k *)
Theorem anchor_and_target_move_together s r k q q' a a' p :
  0 < k -> a_abs_row a = false ->
  cell_map (DRow s r k) q = Some q' ->
  rebase q q' a = Some a' ->
  displace (DRow s r k) false false q' a' = Some p -> a_sheet a = s ->
  a_row (of_pref s q' p) =
    a_row a + (if r <=? fst (resolve q a) then k else 0) - (if r <=? fst q then k else 0).
Proof.
  intros Hk Hrel Hq Hreb Hd Hs. unfold rebase in Hreb.
  destruct (displace DNone false false q a) as [p0|] eqn:E0; [|discriminate].
  destruct (readable p0); [|discriminate]. injection Hreb as <-.
  apply displace_inv in E0 as (row & col & Hpos & _ & _ & ->).
  apply displace_inv in Hd as (row' & col' & Hpos' & _ & _ & ->).
  rewrite resolve_of_pref in Hpos'. cbn [of_pref a_sheet mkp p_row p_col] in Hpos'.
  rewrite Hs, displace_pos_on_sheet in Hpos' by constructor.
  destruct q as [qr qc], (resolve (qr, qc) a) as [tr tc] eqn:Hres.
  cbn [displace_pos cell_map] in Hpos, Hpos', Hq. rewrite line_map_ins in Hpos', Hq by exact Hk.
  injection Hpos as <- <-. injection Hpos' as <- <-. injection Hq as <-.
  unfold resolve in Hres. rewrite Hrel in Hres. injection Hres as <- _.
  cbn [of_pref mkp p_abs_row p_row a_row a_abs_row fst]. rewrite Hrel.
  destruct (r <=? a_row a + qr), (r <=? qr); lia.
Qed.

(* ranges: both corners are displaced independently; the three cases of the statement of C12 *)
Lemma ins_row_range_cases r k r1 r2 :
  0 < k -> r1 <= r2 ->
  (r1 < r <= r2 -> (if r <=? r1 then r1 + k else r1) = r1 /\ (if r <=? r2 then r2 + k else r2) = r2 + k) /\
  (r <= r1 -> (if r <=? r1 then r1 + k else r1) = r1 + k /\ (if r <=? r2 then r2 + k else r2) = r2 + k) /\
  (r2 < r -> (if r <=? r1 then r1 + k else r1) = r1 /\ (if r <=? r2 then r2 + k else r2) = r2).
Proof. intros Hk H12. destruct (Z.leb_spec r r1), (Z.leb_spec r r2); lia. Qed.

Theorem ins_col_range s c k q g r1 c1 r2 c2 :
  0 < k -> g_sheet g = s -> is_full_col g = false ->
  resolve q (corner1 g) = (r1, c1) -> resolve q (corner2 g) = (r2, c2) ->
  1 <= r1 -> 1 <= r2 -> 1 <= c1 <= LAST_COLUMN -> 1 <= c2 <= LAST_COLUMN ->
  (if c <=? c2 then c2 + k else c2) <= LAST_COLUMN -> c1 <= c2 ->
  displace_range (DCol s c k) q g =
    (Some (mkp r1 (if c <=? c1 then c1 + k else c1) (corner1 g)),
     Some (mkp r2 (if c <=? c2 then c2 + k else c2) (corner2 g))).
Proof.
  intros Hk Hs Hf H1 H2 Hr1 Hr2 Hc1 Hc2 Hle H12. unfold displace_range. rewrite Hf.
  pose proof (col_ref s c k q (corner1 g) (is_full_row g) r1 c1 Hs H1 Hr1 Hc1 ltac:(lia)) as E1.
  pose proof (col_ref s c k q (corner2 g) (is_full_row g) r2 c2 Hs H2 Hr2 Hc2 ltac:(lia)) as E2.
  rewrite line_map_ins in E1, E2 by exact Hk.
  rewrite (proj1 E1), (proj1 E2); [reflexivity|exact Hle|]. revert Hle. destruct (Z.leb_spec c c1), (Z.leb_spec c c2); lia.
Qed.

(* "A:A" (all rows) is exempt from row displacement, "1:1" from column displacement *)
Theorem full_row_range_exempt s r delta q g c1 c2 :
  is_full_row g = true ->
  snd (resolve q (corner1 g)) = c1 -> snd (resolve q (corner2 g)) = c2 ->
  1 <= c1 <= LAST_COLUMN -> 1 <= c2 <= LAST_COLUMN ->
  displace_range (DRow s r delta) q g =
    (Some (mkp 1 c1 (corner1 g)), Some (mkp LAST_ROW c2 (corner2 g))).
Proof.
  intros Hf <- <- Hc1 Hc2. unfold displace_range. rewrite Hf. unfold is_full_row in Hf.
  apply andb_true_iff in Hf as [Hf H4]. apply andb_true_iff in Hf as [Hf H3].
  apply andb_true_iff in Hf as [Ha1 Ha2]. apply Z.eqb_eq in H3, H4.
  f_equal; apply displace_some; try assumption; try (unfold LAST_ROW; lia);
    unfold resolve; cbn [corner1 corner2 a_abs_row a_row displace_pos negb snd];
    rewrite ?Ha1, ?Ha2, ?H3, ?H4, andb_false_r; reflexivity.
Qed.

Theorem full_col_range_exempt s c delta q g r1 r2 :
  is_full_col g = true ->
  fst (resolve q (corner1 g)) = r1 -> fst (resolve q (corner2 g)) = r2 ->
  1 <= r1 -> 1 <= r2 ->
  displace_range (DCol s c delta) q g =
    (Some (mkp r1 1 (corner1 g)), Some (mkp r2 LAST_COLUMN (corner2 g))).
Proof.
  intros Hf <- <- Hr1 Hr2. unfold displace_range. rewrite Hf. unfold is_full_col in Hf.
  apply andb_true_iff in Hf as [Hf H4]. apply andb_true_iff in Hf as [Hf H3].
  apply andb_true_iff in Hf as [Ha1 Ha2]. apply Z.eqb_eq in H3, H4.
  f_equal; apply displace_some; try assumption; try (unfold LAST_COLUMN; lia);
    unfold resolve; cbn [corner1 corner2 a_abs_col a_col displace_pos negb fst];
    rewrite ?Ha1, ?Ha2, ?H3, ?H4, andb_false_r; reflexivity.
Qed.

(* the whole rewrite under insertion: the new stored reference, read from the MOVED anchor,
   points at [cell_map p]; beyond the last row it is NOT "#REF!" but an unreadable text (finding) *)
Theorem ins_row_rewrite s r k same q q' a row col :
  0 < k -> a_sheet a = s -> resolve q a = (row, col) ->
  1 <= row <= LAST_ROW -> 1 <= col <= LAST_COLUMN ->
  anchor_map (DRow s r k) same q = Some q' ->
  let row' := if r <=? row then row + k else row in
  cell_map (DRow s r k) (row, col) = Some (row', col) /\
  (row' <= LAST_ROW ->
     exists a', apply_disp_full (DRow s r k) same q a = RwRef q' a' /\ follows q' a a' (row', col)) /\
  (LAST_ROW < row' -> apply_disp_full (DRow s r k) same q a = RwUnreadable).
Proof.
  intros Hk Hs Hres Hrow Hcol Hq row'.
  pose proof (row_ref s r k q a false row col Hs Hres ltac:(lia) Hcol ltac:(lia)) as Hd.
  cbn [cell_map]. rewrite line_map_ins in * by exact Hk. fold row' in Hd |- *.
  split; [reflexivity|]. split; intro H.
  - apply (rewrite_follows _ _ _ _ _ row col); assumption.
  - rewrite (apply_disp_full_displace _ _ _ q' _ row col), Hd by assumption.
    unfold readable. cbn [mkp p_row]. destruct (Z.leb_spec row' LAST_ROW); [lia|reflexivity].
Qed.

(* columns: the same, and "#REF!" exactly beyond the last column *)
Theorem ins_col_rewrite s c k same q q' a row col :
  0 < k -> a_sheet a = s -> resolve q a = (row, col) ->
  1 <= row <= LAST_ROW -> 1 <= col <= LAST_COLUMN ->
  anchor_map (DCol s c k) same q = Some q' ->
  let col' := if c <=? col then col + k else col in
  cell_map (DCol s c k) (row, col) = Some (row, col') /\
  (col' <= LAST_COLUMN ->
     exists a', apply_disp_full (DCol s c k) same q a = RwRef q' a' /\ follows q' a a' (row, col')) /\
  (LAST_COLUMN < col' -> apply_disp_full (DCol s c k) same q a = RwRefError).
Proof.
  intros Hk Hs Hres Hrow Hcol Hq col'.
  pose proof (col_ref s c k q a false row col Hs Hres ltac:(lia) Hcol ltac:(lia)) as Hd.
  cbn [cell_map]. rewrite line_map_ins in * by exact Hk. fold col' in Hd |- *. destruct Hd as [Hd Hn].
  split; [reflexivity|]. split; intro H.
  - apply (rewrite_follows _ _ _ _ _ row col); try assumption; [exact (Hd H)|lia].
  - rewrite (apply_disp_full_displace _ _ _ q' _ row col), (Hn H) by assumption. reflexivity.
Qed.

(* FINDING (row overflow): a reference pushed beyond the last ROW is not "#REF!": the printer
   emits a row number above LAST_ROW, which no longer reads back as a reference *)
Definition row_overflow_witness : aref :=
  {| a_sheet := 0; a_row := LAST_ROW; a_col := 1; a_abs_row := true; a_abs_col := false |}.

Theorem ins_row_overflow_not_ref_error :
  exists s r k q a,
    0 < k /\ grid (resolve q a) /\ a_sheet a = s /\
    LAST_ROW < fst (resolve q a) + k /\ r <= fst (resolve q a) /\
    displace (DRow s r k) false false q a <> None /\
    displace_text (DRow s r k) false false q a <> ref_error /\
    parse_reference_a1 (displace_text (DRow s r k) false false q a) = None.
Proof.
  exists 0, 2, 1, (1, 1), row_overflow_witness. vm_compute.
  repeat split; try discriminate; intro H; discriminate H.
Qed.

(* "=B$1048576" in A1, one row inserted at row 2: the statement asks for "#REF!";
   the rewrite yields the text "B$1048577", which is neither "#REF!" nor a reference *)
Theorem ins_row_overflow_refuted :
  exists s r k same q a,
    0 < k /\ grid q /\ grid (resolve q a) /\ a_sheet a = s /\
    r <= fst (resolve q a) /\ LAST_ROW < fst (resolve q a) + k /\
    apply_disp_full (DRow s r k) same q a = RwUnreadable /\
    apply_disp_full (DRow s r k) same q a <> RwRefError /\
    displace_text (DRow s r k) false false q a = [66; 36; 49; 48; 52; 56; 53; 55; 55] /\
    parse_reference_a1 (displace_text (DRow s r k) false false q a) = None.
Proof.
  exists 0, 2, 1, true, (1, 1), row_overflow_witness. vm_compute.
  repeat split; first [reflexivity | discriminate | (intro H; discriminate H)].
Qed.

(* the same edit on columns does give "#REF!" *)
Example ins_col_overflow_is_ref_error :
  apply_disp_full (DCol 0 2 1) true (1, 1)
    {| a_sheet := 0; a_row := 1; a_col := LAST_COLUMN; a_abs_row := false; a_abs_col := true |} = RwRefError.
Proof. vm_compute. reflexivity. Qed.

(* the premises of the rewrite theorems are satisfiable, and the conclusions are what one
   expects on a concrete sheet: "=B$5" in C7, two rows inserted at row 3 -> "=B$7" in C9 *)
Example ins_row_rewrite_example :
  apply_disp_full (DRow 0 3 2) true (7, 3)
    {| a_sheet := 0; a_row := 5; a_col := -1; a_abs_row := true; a_abs_col := false |} =
  RwRef (9, 3) {| a_sheet := 0; a_row := 7; a_col := -1; a_abs_row := true; a_abs_col := false |}.
Proof. vm_compute. reflexivity. Qed.

(* deletion, case by case: before the band, inside it, after it *)
Theorem del_row_ref s r k q a fc row col :
  0 < k -> 1 <= r -> a_sheet a = s -> resolve q a = (row, col) -> 1 <= row -> 1 <= col <= LAST_COLUMN ->
  (row < r ->
     cell_map (DRow s r (- k)) (row, col) = Some (row, col) /\
     displace (DRow s r (- k)) false fc q a = Some (mkp row col a)) /\
  (r <= row < r + k ->
     cell_map (DRow s r (- k)) (row, col) = None /\
     displace (DRow s r (- k)) false fc q a = None) /\
  (r + k <= row ->
     cell_map (DRow s r (- k)) (row, col) = Some (row - k, col) /\
     displace (DRow s r (- k)) false fc q a = Some (mkp (row - k) col a)).
Proof.
  intros Hk Hr Hs Hres Hrow Hcol. cbn [cell_map].
  rewrite (row_ref s r (- k) q a fc row col) by (trivial; lia).
  split; [|split]; intro H.
  - rewrite line_map_del_before by lia. split; reflexivity.
  - rewrite line_map_del_inside by lia. split; reflexivity.
  - rewrite line_map_del_after by lia. split; reflexivity.
Qed.

Theorem del_col_ref s c k q a fr row col :
  0 < k -> 1 <= c -> a_sheet a = s -> resolve q a = (row, col) -> 1 <= row -> 1 <= col <= LAST_COLUMN ->
  (col < c ->
     cell_map (DCol s c (- k)) (row, col) = Some (row, col) /\
     displace (DCol s c (- k)) fr false q a = Some (mkp row col a)) /\
  (c <= col < c + k ->
     cell_map (DCol s c (- k)) (row, col) = None /\
     displace (DCol s c (- k)) fr false q a = None) /\
  (c + k <= col ->
     cell_map (DCol s c (- k)) (row, col) = Some (row, col - k) /\
     displace (DCol s c (- k)) fr false q a = Some (mkp row (col - k) a)).
Proof.
  intros Hk Hc Hs Hres Hrow Hcol. cbn [cell_map].
  pose proof (col_ref s c (- k) q a fr row col Hs Hres Hrow Hcol ltac:(lia)) as Hd.
  split; [|split]; intro H.
  - rewrite line_map_del_before in * by lia. split; [reflexivity|apply Hd; lia].
  - rewrite line_map_del_inside in * by lia. split; [reflexivity|exact Hd].
  - rewrite line_map_del_after in * by lia. split; [reflexivity|apply Hd; lia].
Qed.

(* "=SUM(A3:A6)" in B1, rows 2..3 deleted: a corner inside the deleted band gets "#REF!" for
   THAT corner only, the other corner follows its cell — the code prints "#REF!:A4" *)
Example del_corner_text :
  displace_range_text (DRow 0 2 (-2)) (1, 2)
    {| g_sheet := 0; g_row1 := 2; g_col1 := -1; g_abs_row1 := false; g_abs_col1 := false;
       g_row2 := 5; g_col2 := -1; g_abs_row2 := false; g_abs_col2 := false |}
  = [35; 82; 69; 70; 33; 58; 65; 52].
Proof. vm_compute. reflexivity. Qed.

(* the whole rewrite under deletion: outside the band the reference follows its cell, inside
   it is "#REF!" *)
Theorem del_row_rewrite s r k same q q' a row col :
  0 < k -> 1 <= r -> a_sheet a = s -> resolve q a = (row, col) ->
  1 <= row <= LAST_ROW -> 1 <= col <= LAST_COLUMN ->
  anchor_map (DRow s r (- k)) same q = Some q' ->
  (r <= row < r + k ->
     cell_map (DRow s r (- k)) (row, col) = None /\
     apply_disp_full (DRow s r (- k)) same q a = RwRefError) /\
  (row < r \/ r + k <= row ->
     exists t, cell_map (DRow s r (- k)) (row, col) = Some t /\
     t = ((if row <? r then row else row - k), col) /\
     exists a', apply_disp_full (DRow s r (- k)) same q a = RwRef q' a' /\ follows q' a a' t).
Proof.
  intros Hk Hr Hs Hres Hrow Hcol Hq. cbn [cell_map].
  pose proof (row_ref s r (- k) q a false row col Hs Hres ltac:(lia) Hcol ltac:(lia)) as Hd.
  split; intro H.
  - rewrite line_map_del_inside in * by lia. split; [reflexivity|].
    rewrite (apply_disp_full_displace _ _ _ q' _ row col), Hd by assumption. reflexivity.
  - destruct (Z.ltb_spec row r);
      [rewrite line_map_del_before in * by lia|rewrite line_map_del_after in * by lia];
      (eexists; split; [reflexivity|]; split; [reflexivity|]);
      apply (rewrite_follows _ _ _ _ _ row col); try assumption; lia.
Qed.

Theorem del_col_rewrite s c k same q q' a row col :
  0 < k -> 1 <= c -> a_sheet a = s -> resolve q a = (row, col) ->
  1 <= row <= LAST_ROW -> 1 <= col <= LAST_COLUMN ->
  anchor_map (DCol s c (- k)) same q = Some q' ->
  (c <= col < c + k ->
     cell_map (DCol s c (- k)) (row, col) = None /\
     apply_disp_full (DCol s c (- k)) same q a = RwRefError) /\
  (col < c \/ c + k <= col ->
     exists t, cell_map (DCol s c (- k)) (row, col) = Some t /\
     t = (row, (if col <? c then col else col - k)) /\
     exists a', apply_disp_full (DCol s c (- k)) same q a = RwRef q' a' /\ follows q' a a' t).
Proof.
  intros Hk Hc Hs Hres Hrow Hcol Hq. cbn [cell_map].
  pose proof (col_ref s c (- k) q a false row col Hs Hres ltac:(lia) Hcol ltac:(lia)) as Hd.
  split; intro H.
  - rewrite line_map_del_inside in * by lia. split; [reflexivity|].
    rewrite (apply_disp_full_displace _ _ _ q' _ row col), Hd by assumption. reflexivity.
  - destruct (Z.ltb_spec col c);
      [rewrite line_map_del_before in * by lia|rewrite line_map_del_after in * by lia];
      (eexists; split; [reflexivity|]; split; [reflexivity|]);
      apply (rewrite_follows _ _ _ _ _ row col); try assumption; try lia; apply Hd; lia.
Qed.

(* "=B5" (relative) in C7, rows 4..5 deleted -> "#REF!"; "=B6" -> "=B4" seen from C5 *)
Example del_row_rewrite_example :
  apply_disp_full (DRow 0 4 (-2)) true (7, 3)
    {| a_sheet := 0; a_row := -2; a_col := -1; a_abs_row := false; a_abs_col := false |} = RwRefError /\
  apply_disp_full (DRow 0 4 (-2)) true (7, 3)
    {| a_sheet := 0; a_row := -1; a_col := -1; a_abs_row := false; a_abs_col := false |} =
  RwRef (5, 3) {| a_sheet := 0; a_row := -1; a_col := -1; a_abs_row := false; a_abs_col := false |}.
Proof. vm_compute. split; reflexivity. Qed.

Lemma ins_del_line x r k : 0 < k -> line_map (if r <=? x then x + k else x) r (- k) = Some x.
Proof.
  intro Hk. destruct (Z.leb_spec r x).
  - rewrite line_map_del_after by lia. f_equal. lia.
  - apply line_map_del_before; lia.
Qed.

(* the inserted band is empty: nothing is mapped into it, so the deletion removes nothing *)
Theorem ins_misses_band x r k y : 0 < k -> line_map x r k = Some y -> y < r \/ r + k <= y.
Proof. intros Hk H. pose proof (line_map_spec x r k) as S. rewrite H in S. lia. Qed.

Definition then_disp (d1 d2 : disp) (same : bool) (q : pos) (a : aref) : option (pos * aref) :=
  match apply_disp d1 same q a with
  | None => None
  | Some (q1, a1) => apply_disp d2 same q1 a1
  end.

(* two edits that are inverse on the anchor and on the target give back the stored reference *)
Theorem then_disp_inverse d1 d2 same q a q1 t1 :
  1 <= fst (resolve q a) <= LAST_ROW -> 1 <= snd (resolve q a) <= LAST_COLUMN ->
  anchor_map d1 same q = Some q1 -> anchor_map d2 same q1 = Some q ->
  displace_pos d1 false false (a_sheet a) (resolve q a) = Some t1 ->
  displace_pos d2 false false (a_sheet a) t1 = Some (resolve q a) ->
  1 <= fst t1 <= LAST_ROW -> 1 <= snd t1 <= LAST_COLUMN ->
  then_disp d1 d2 same q a = Some (q, a).
Proof.
  intros Ht1 Ht2 Hq1 Hq2 Hd1 Hd2 Hr1 Hc1. destruct t1 as [row1 col1]. cbn [fst snd] in *.
  unfold then_disp, apply_disp.
  destruct (rewrite_follows d1 same q q1 a _ _ row1 col1 (surjective_pairing _) Ht1 Ht2 Hq1)
    as (a1 & -> & Hres1 & Har1 & Hac1 & Hs1); [apply displace_some; (assumption || lia)|lia|].
  destruct (rewrite_follows d2 same q1 q a1 row1 col1 (fst (resolve q a)) (snd (resolve q a)) Hres1 Hr1 Hc1 Hq2)
    as (a2 & -> & Hres2 & Har2 & Hac2 & Hs2).
  - apply displace_some; try lia. rewrite Hs1, Hres1, Hd2, <- surjective_pairing. reflexivity.
  - lia.
  - rewrite <- surjective_pairing in Hres2.
    rewrite (follows_unique q a a2) by (unfold follows; rewrite Har2, Hac2, Hs2; auto). reflexivity.
Qed.

(* the same in terms of where cells go: [d2] undoes [d1] on the formula's cell and on its
   target, and the target stays on the grid in between *)
Corollary then_disp_inverse_cells d1 d2 s same q a q1 t1 :
  disp_sheet d1 = Some s -> disp_sheet d2 = Some s ->
  cell_map d1 q = Some q1 -> cell_map d2 q1 = Some q ->
  cell_map d1 (resolve q a) = Some t1 -> cell_map d2 t1 = Some (resolve q a) ->
  1 <= fst (resolve q a) <= LAST_ROW -> 1 <= snd (resolve q a) <= LAST_COLUMN ->
  1 <= fst t1 <= LAST_ROW -> 1 <= snd t1 <= LAST_COLUMN ->
  then_disp d1 d2 same q a = Some (q, a).
Proof.
  intros H1 H2 Hq1 Hq2 Hc1 Hc2 Ht1 Ht2 Hr1 Hcl1.
  assert (Ha : anchor_map d1 same q = Some (if same then q1 else q) /\
               anchor_map d2 same (if same then q1 else q) = Some q) by (destruct same; auto).
  destruct Ha as [Ha1 Ha2]. destruct (Z.eq_dec (a_sheet a) s) as [E|E].
  - apply (then_disp_inverse d1 d2 same q a (if same then q1 else q) t1); try assumption;
      rewrite E, displace_pos_is_cell_map; assumption.
  - apply (then_disp_inverse d1 d2 same q a (if same then q1 else q) (resolve q a)); try assumption;
      apply (displace_pos_other_sheet _ _ s); assumption.
Qed.

(* rows: the whole rewrite (re-type in the moved cell, displace, read back; twice) gives back
   the stored reference and the anchor — for formulas on the edited sheet ([same = true]) or on
   another one, references to the edited sheet or to another one, all flag combinations,
   provided the inserted rows did not push the target beyond the last row *)
Theorem ins_del_ref_rows s r k same q a :
  0 < k ->
  1 <= fst (resolve q a) -> 1 <= snd (resolve q a) <= LAST_COLUMN ->
  (if r <=? fst (resolve q a) then fst (resolve q a) + k else fst (resolve q a)) <= LAST_ROW ->
  then_disp (DRow s r k) (DRow s r (- k)) same q a = Some (q, a).
Proof.
  intros Hk Ht1 Ht2 Hno. pose proof (ins_line_bounds (fst (resolve q a)) r k Hk) as Hb.
  destruct q as [qr qc], (resolve (qr, qc) a) as [row col] eqn:E. cbn [fst snd] in *.
  apply (then_disp_inverse_cells _ _ s same (qr, qc) a (if r <=? qr then qr + k else qr, qc)
           (if r <=? row then row + k else row, col));
    rewrite ?E; cbn [cell_map fst snd]; rewrite ?line_map_ins, ?ins_del_line by exact Hk; (reflexivity || lia).
Qed.

Theorem ins_del_ref_cols s c k same q a :
  0 < k ->
  1 <= fst (resolve q a) <= LAST_ROW -> 1 <= snd (resolve q a) ->
  (if c <=? snd (resolve q a) then snd (resolve q a) + k else snd (resolve q a)) <= LAST_COLUMN ->
  then_disp (DCol s c k) (DCol s c (- k)) same q a = Some (q, a).
Proof.
  intros Hk Ht1 Ht2 Hno. pose proof (ins_line_bounds (snd (resolve q a)) c k Hk) as Hb.
  destruct q as [qr qc], (resolve (qr, qc) a) as [row col] eqn:E. cbn [fst snd] in *.
  apply (then_disp_inverse_cells _ _ s same (qr, qc) a (qr, if c <=? qc then qc + k else qc)
           (row, if c <=? col then col + k else col));
    rewrite ?E; cbn [cell_map fst snd]; rewrite ?line_map_ins, ?ins_del_line by exact Hk; (reflexivity || lia).
Qed.

Example then_disp_example :
  then_disp (DRow 0 3 2) (DRow 0 3 (-2)) true (7, 3)
    {| a_sheet := 0; a_row := -2; a_col := 4; a_abs_row := false; a_abs_col := true |} =
  Some ((7, 3), {| a_sheet := 0; a_row := -2; a_col := 4; a_abs_row := false; a_abs_col := true |}).
Proof. vm_compute. reflexivity. Qed.

(* one step at the level of stored references: the printed reference is the moved cell *)
Theorem move_row_ref_follows s i d q a row col :
  a_sheet a = s -> resolve q a = (row, col) -> 1 <= single_move i d row -> 1 <= col <= LAST_COLUMN ->
  cell_map (DRowMove s i d) (row, col) = Some (single_move i d row, col) /\
  displace (DRowMove s i d) false false q a = Some (mkp (single_move i d row) col a).
Proof.
  intros Hs Hres Hr Hc. split; [reflexivity|].
  exact (displace_cell (d := DRowMove s i d) (p := (row, col)) eq_refl Hs Hres eq_refl I Hr Hc).
Qed.

Theorem move_col_ref_follows s i d q a row col :
  a_sheet a = s -> resolve q a = (row, col) -> 1 <= row -> 1 <= single_move i d col <= LAST_COLUMN ->
  cell_map (DColMove s i d) (row, col) = Some (row, single_move i d col) /\
  displace (DColMove s i d) false false q a = Some (mkp row (single_move i d col) a).
Proof.
  intros Hs Hres Hr Hc. split; [reflexivity|].
  exact (displace_cell (d := DColMove s i d) (p := (row, col)) eq_refl Hs Hres eq_refl I Hr Hc).
Qed.

(* a single move and the opposite move give back the stored reference (what undo relies on) *)
Theorem move_row_then_back s i d same q a :
  1 <= i <= LAST_ROW -> 1 <= i + d <= LAST_ROW ->
  1 <= fst (resolve q a) <= LAST_ROW -> 1 <= snd (resolve q a) <= LAST_COLUMN ->
  then_disp (DRowMove s i d) (DRowMove s (i + d) (- d)) same q a = Some (q, a).
Proof.
  intros Hi Hd Ht1 Ht2. pose proof (single_move_range LAST_ROW i d _ Hi Hd Ht1) as Hb.
  destruct q as [qr qc], (resolve (qr, qc) a) as [row col] eqn:E. cbn [fst snd] in *.
  apply (then_disp_inverse_cells _ _ s same (qr, qc) a (single_move i d qr, qc) (single_move i d row, col));
    rewrite ?E; cbn [cell_map fst snd]; rewrite ?single_move_inverse; (reflexivity || assumption).
Qed.

Theorem move_col_then_back s i d same q a :
  1 <= i <= LAST_COLUMN -> 1 <= i + d <= LAST_COLUMN ->
  1 <= fst (resolve q a) <= LAST_ROW -> 1 <= snd (resolve q a) <= LAST_COLUMN ->
  then_disp (DColMove s i d) (DColMove s (i + d) (- d)) same q a = Some (q, a).
Proof.
  intros Hi Hd Ht1 Ht2. pose proof (single_move_range LAST_COLUMN i d _ Hi Hd Ht2) as Hb.
  destruct q as [qr qc], (resolve (qr, qc) a) as [row col] eqn:E. cbn [fst snd] in *.
  apply (then_disp_inverse_cells _ _ s same (qr, qc) a (qr, single_move i d qc) (row, single_move i d col));
    rewrite ?E; cbn [cell_map fst snd]; rewrite ?single_move_inverse; (reflexivity || assumption).
Qed.

(* block moves. References to single cells: through the code's sequence of RowMove/ColumnMove
   displacements the target of a reference goes exactly where its cell goes *)
Lemma seq_last_first rowwise s i n d row col :
  displace_pos_seq (move_disps_last_first rowwise s i n d) s (row, col) =
  Some (if rowwise then (iter_last_first i n d row, col) else (row, iter_last_first i n d col)).
Proof.
  revert row col. induction n as [|n IH]; intros row col; destruct rowwise;
    cbn [move_disps_last_first displace_pos_seq iter_last_first displace_pos]; try reflexivity;
    rewrite Z.eqb_refl; apply IH.
Qed.

Lemma seq_first_first rowwise s i n d row col :
  displace_pos_seq (move_disps_first_first rowwise s i n d) s (row, col) =
  Some (if rowwise then (iter_first_first i n d row, col) else (row, iter_first_first i n d col)).
Proof.
  revert i row col. induction n as [|n IH]; intros i row col; destruct rowwise;
    cbn [move_disps_first_first displace_pos_seq iter_first_first displace_pos]; try reflexivity;
    rewrite Z.eqb_refl; apply IH.
Qed.

Theorem move_refs_follow rowwise s i n d row col :
  displace_pos_seq (move_disps rowwise s i n d) s (row, col) =
  Some (if rowwise then (block_move i (Z.of_nat n) d row, col) else (row, block_move i (Z.of_nat n) d col)).
Proof.
  rewrite <- !iterate_is_block. unfold move_disps, iterate_moves.
  destruct (0 <? d); [apply seq_last_first|apply seq_first_first].
Qed.

(* the same at the level of stored references, for ANY sequence of displacements of one sheet
   each of which relocates every cell and keeps the cells of the grid on the grid: each step
   re-types, displaces and re-parses, and anchor and target go where the sequence sends them *)
Lemma apply_disp_seq_follows s ds same q a :
  Forall (fun d => disp_sheet d = Some s /\
                   forall p, exists p', cell_map d p = Some p' /\ (grid p -> grid p')) ds ->
  a_sheet a = s -> grid (resolve q a) ->
  exists q' a' t,
    apply_disp_seq ds same q a = RwRef q' a' /\ follows q' a a' t /\
    displace_pos_seq ds s (resolve q a) = Some t /\
    (if same then displace_pos_seq ds s q = Some q' else q' = q).
Proof.
  intro HF. revert q a. induction HF as [|d ds [Hd Hcm] _ IH]; intros q a Hs Hg.
  - exists q, a, (resolve q a). cbn [apply_disp_seq displace_pos_seq]. unfold follows.
    destruct same; repeat split.
  - destruct (Hcm (resolve q a)) as ([row1 col1] & Ht & Hg1), (Hcm q) as (q1 & Hq1 & _). specialize (Hg1 Hg).
    destruct Hg as [Hr Hc], Hg1 as [Hr1 Hc1]. cbn [fst snd] in Hr1, Hc1.
    destruct (rewrite_follows d same q (if same then q1 else q) a _ _ row1 col1 (surjective_pairing _) Hr Hc)
      as (a1 & Ha1 & Hres1 & Har1 & Hac1 & Hs1); [destruct same; trivial| |lia|].
    { apply (displace_cell Ht Hs eq_refl Hd); [destruct d; constructor|lia|exact Hc1]. }
    destruct (IH (if same then q1 else q) a1) as (q' & a' & t & Hseq & (A & B & C & D) & Hpos & Hanch).
    + rewrite Hs1. exact Hs.
    + rewrite Hres1. split; assumption.
    + exists q', a', t. cbn [apply_disp_seq displace_pos_seq].
      rewrite Ha1, !displace_pos_is_cell_map, Ht, Hq1 by exact Hd. rewrite Hres1 in Hpos.
      repeat split; trivial; try congruence. destruct same; exact Hanch.
Qed.

Lemma move_disps_in rowwise s i n d x :
  In x (move_disps rowwise s i n d) ->
  exists j, i <= j < i + Z.of_nat n /\ x = if rowwise then DRowMove s j d else DColMove s j d.
Proof.
  unfold move_disps. destruct (0 <? d).
  - induction n as [|n IH]; cbn [move_disps_last_first In]; [tauto|]. intros [<-|H].
    + exists (i + Z.of_nat n). split; [lia|reflexivity].
    + destruct (IH H) as (j & Hj & ->). exists j. split; [lia|reflexivity].
  - revert i. induction n as [|n IH]; intro i; cbn [move_disps_first_first In]; [tauto|]. intros [<-|H].
    + exists i. split; [lia|reflexivity].
    + destruct (IH _ H) as (j & Hj & ->). exists j. split; [lia|reflexivity].
Qed.

Theorem move_rows_rewrite s i n d same q a row col :
  1 <= i -> i + Z.of_nat n - 1 <= LAST_ROW -> 1 <= i + d -> i + Z.of_nat n - 1 + d <= LAST_ROW ->
  a_sheet a = s -> resolve q a = (row, col) -> 1 <= row <= LAST_ROW -> 1 <= col <= LAST_COLUMN ->
  exists q' a',
    apply_disp_seq (move_disps true s i n d) same q a = RwRef q' a' /\
    follows q' a a' (block_move i (Z.of_nat n) d row, col) /\
    q' = (if same then (block_move i (Z.of_nat n) d (fst q), snd q) else q).
Proof.
  intros H1 H2 H3 H4 Hs Hres Hr Hc.
  destruct (apply_disp_seq_follows s (move_disps true s i n d) same q a)
    as (q' & a' & t & Hseq & Hfol & Hpos & Hanch); [|exact Hs|rewrite Hres; split; assumption|].
  - apply Forall_forall. intros x Hx. destruct (move_disps_in _ _ _ _ _ _ Hx) as (j & Hj & ->).
    split; [reflexivity|]. intros [pr pc]. eexists. split; [reflexivity|]. unfold grid. cbn [fst snd].
    pose proof (single_move_range LAST_ROW j d pr). lia.
  - exists q', a'. split; [exact Hseq|]. rewrite Hres, (move_refs_follow true) in Hpos.
    injection Hpos as <-. split; [exact Hfol|]. destruct same; [|exact Hanch].
    destruct q as [qr qc]. rewrite (move_refs_follow true) in Hanch. injection Hanch as <-. reflexivity.
Qed.

(* rows 2..3 moved down by 2: 1 2 3 4 5 6 -> 1 4 5 2 3 6 *)
Example block_move_example :
  map (iterate_moves 2 2 2) [1; 2; 3; 4; 5; 6] = [1; 4; 5; 2; 3; 6] /\
  map (block_move 2 2 2) [1; 2; 3; 4; 5; 6] = [1; 4; 5; 2; 3; 6].
Proof. vm_compute. split; reflexivity. Qed.

(* the hidden-line adjustment of UserModel: [count_hidden] counts the hidden lines of a zone and
   is Err as soon as the zone leaves [1, last] *)
Lemma count_hidden_bound hidden last lo len c :
  count_hidden hidden last lo len = Ok c -> 0 <= c <= Z.of_nat len.
Proof.
  revert lo c. induction len as [|len IH]; intros lo c; cbn [count_hidden].
  - intros [= <-]. lia.
  - destruct (_ && _); [|discriminate].
    destruct (count_hidden hidden last (lo + 1) len) as [c'| |] eqn:E; try discriminate.
    intros [= <-]. apply IH in E. destruct (hidden lo); lia.
Qed.

Lemma count_hidden_ok hidden last lo len :
  1 <= lo -> lo + Z.of_nat len - 1 <= last -> exists c, count_hidden hidden last lo len = Ok c.
Proof.
  revert lo. induction len as [|len IH]; intros lo H1 H2; cbn [count_hidden]; [eauto|].
  destruct (Z.leb_spec 1 lo), (Z.leb_spec lo last); try lia. cbn [andb].
  destruct (IH (lo + 1)) as [c ->]; try lia. eauto.
Qed.

Lemma count_hidden_none hidden last lo len :
  (forall x, hidden x = false) -> 1 <= lo -> lo + Z.of_nat len - 1 <= last ->
  count_hidden hidden last lo len = Ok 0.
Proof.
  intro Hh. revert lo. induction len as [|len IH]; intros lo H1 H2; cbn [count_hidden]; [reflexivity|].
  destruct (Z.leb_spec 1 lo), (Z.leb_spec lo last); try lia. cbn [andb].
  rewrite IH, Hh by lia. reflexivity.
Qed.

Lemma count_hidden_err hidden last lo len :
  (0 < len)%nat -> last < lo + Z.of_nat len - 1 -> count_hidden hidden last lo len = Err.
Proof.
  revert lo. induction len as [|len IH]; intros lo Hl H; [lia|].
  cbn [count_hidden]. destruct (Z.leb_spec lo last); [|rewrite andb_false_r; reflexivity].
  destruct (_ && _); [|reflexivity]. rewrite IH by lia. reflexivity.
Qed.

Lemma count_hidden_snoc hidden last lo len :
  count_hidden hidden last lo (S len) =
  match count_hidden hidden last lo len with
  | Ok c => if (1 <=? lo + Z.of_nat len) && (lo + Z.of_nat len <=? last)
            then Ok (c + (if hidden (lo + Z.of_nat len) then 1 else 0)) else Err
  | Err => Err
  | Panic => Panic
  end.
Proof.
  revert lo. induction len as [|len IH]; intro lo.
  - cbn [count_hidden]. rewrite Z.add_0_r. destruct (_ && _); reflexivity.
  - remember (S len) as m. cbn [count_hidden]. subst m. rewrite (IH (lo + 1)). cbn [count_hidden].
    replace (lo + 1 + Z.of_nat len) with (lo + Z.of_nat (S len)) by lia.
    destruct ((1 <=? lo) && (lo <=? last)); [|reflexivity].
    destruct (count_hidden hidden last (lo + 1) len); try reflexivity.
    destruct (_ && _); [|reflexivity]. f_equal. lia.
Qed.

(* no hidden line in sight: the delta is the one requested *)
Theorem hidden_adjust_none hidden last i n d :
  (forall x, hidden x = false) -> 0 < n -> d <> 0 -> 1 <= i -> i + n - 1 <= last -> 1 <= i + d ->
  i + n + d <= last ->
  hidden_adjust hidden last i n d = Ok d.
Proof.
  intros Hh Hn Hd Hi Hil Hid Hl. unfold hidden_adjust.
  destruct (Z.ltb_spec 0 d); rewrite count_hidden_none by (try assumption; lia); f_equal; lia.
Qed.

(* the adjusted delta never points the other way and never shrinks *)
Theorem hidden_adjust_sign hidden last i n d d' :
  0 < n -> hidden_adjust hidden last i n d = Ok d' ->
  (0 < d -> d <= d' <= 2 * d + 1) /\ (d < 0 -> 2 * d <= d' <= d).
Proof.
  intros Hn H. unfold hidden_adjust in H.
  destruct (Z.ltb_spec 0 d); destruct (count_hidden _ _ _ _) as [c| |] eqn:E; inversion H; subst;
    apply count_hidden_bound in E; lia.
Qed.

(* the inclusive bound, exactly: moving down, the code inspects one line more than the landing
   zone; when that line exists the result is the exclusive-bound result plus one if it is hidden *)
Theorem hidden_adjust_inclusive hidden last i n d :
  0 < d ->
  hidden_adjust hidden last i n d =
  match hidden_adjust_excl hidden last i n d with
  | Ok e => if (1 <=? i + n + d) && (i + n + d <=? last)
            then Ok (e + (if hidden (i + n + d) then 1 else 0)) else Err
  | Err => Err
  | Panic => Panic
  end.
Proof.
  intro Hd. unfold hidden_adjust, hidden_adjust_excl. destruct (Z.ltb_spec 0 d); [|lia].
  replace (Z.to_nat (d + 1)) with (S (Z.to_nat d)) by lia.
  rewrite count_hidden_snoc. replace (i + n + Z.of_nat (Z.to_nat d)) with (i + n + d) by lia.
  destruct (count_hidden hidden last (i + n) (Z.to_nat d)); try reflexivity.
  destruct ((1 <=? i + n + d) && (i + n + d <=? last)); [|reflexivity]. f_equal. lia.
Qed.

(* moving up there is no such extra line *)
Theorem hidden_adjust_up_exact hidden last i n d :
  d < 0 -> hidden_adjust hidden last i n d = hidden_adjust_excl hidden last i n d.
Proof.
  intro Hd. unfold hidden_adjust, hidden_adjust_excl. destruct (Z.ltb_spec 0 d); [lia|reflexivity].
Qed.

(* FINDING: a move that Model::move_rows_action accepts — the block ends exactly on the last
   line — is rejected by UserModel for every workbook, because the extra line is last + 1 *)
Theorem hidden_adjust_rejects_move_to_last_line hidden last i n d :
  0 < d -> 0 < n -> 1 <= i -> i + n - 1 + d = last ->
  move_valid last i n d = true /\ hidden_adjust hidden last i n d = Err.
Proof.
  intros Hd Hn Hi Hl. split.
  - unfold move_valid. repeat (apply andb_true_iff; split); apply Z.leb_le; lia.
  - unfold hidden_adjust. destruct (Z.ltb_spec 0 d); [|lia]. rewrite count_hidden_err; [reflexivity|lia|lia].
Qed.

(* hidden lines: moving row 3 down by 1 when row 5 (one past the landing zone) is hidden uses
   delta 2; with the exclusive bound it would use delta 1 *)
Example hidden_adjust_example :
  hidden_adjust (fun x => x =? 5) LAST_ROW 3 1 1 = Ok 2 /\
  hidden_adjust_excl (fun x => x =? 5) LAST_ROW 3 1 1 = Ok 1 /\
  hidden_adjust (fun _ => false) LAST_ROW (LAST_ROW - 1) 1 1 = Err /\
  move_valid LAST_ROW (LAST_ROW - 1) 1 1 = true.
Proof. vm_compute. repeat split; reflexivity. Qed.

(* argument validation (F27 repaired: insertions validate their index like deletions) *)
Lemma edit_valid_spec last r delta :
  edit_valid last r delta = true <->
  0 < delta /\ 1 <= r <= last \/ delta < 0 /\ 1 <= r /\ r - delta - 1 <= last.
Proof.
  unfold edit_valid. destruct (Z.ltb_spec 0 delta); [|destruct (Z.ltb_spec delta 0)];
    rewrite ?andb_true_iff, ?Z.leb_le; [lia|lia|]. split; [discriminate|lia].
Qed.

(* the former witnesses of F27 are now refused *)
Example insert_below_one_refused :
  edit_valid LAST_ROW 0 2 = false /\ edit_valid LAST_ROW (-3) 1 = false /\
  edit_valid LAST_COLUMN 0 1 = false /\ edit_valid LAST_ROW (LAST_ROW + 1) 1 = false /\
  edit_valid LAST_ROW 1 1 = true /\ edit_valid LAST_ROW LAST_ROW 7 = true.
Proof. vm_compute. repeat split; reflexivity. Qed.

(* an accepted insertion never produces a row below 1: with the index on the grid the
   [row < 1] test of stringify_reference cannot fire on a grid target *)
Theorem accepted_insert_keeps_rows_positive last r k row :
  edit_valid last r k = true -> 0 < k -> 1 <= row -> 1 <= (if r <=? row then row + k else row).
Proof. intros _ Hk Hr. pose proof (ins_line_bounds row r k Hk). lia. Qed.
