(* Syntax/RoundTripLambda.v — round-trip proof: LAMBDA definitions ([parse_lambda]). *)
From IronCalc Require Import Base.Prelude Codec.RefA1 Syntax.Token Syntax.Ast Syntax.Printer Syntax.Parser
  Syntax.Shape Syntax.RoundTripLevels Syntax.RoundTripNodes Syntax.RoundTripArgs.
Local Open Scope nat_scope.

Lemma strip_prefix_app p s : strip_prefix p (p ++ s) = Some s.
Proof. induction p as [|a p IH]; [reflexivity|]. cbn [app strip_prefix]. rewrite Z.eqb_refl. exact IH. Qed.

Lemma trim_none p s : strip_prefix p s = None -> trim_start p s = s.
Proof. intro H. unfold trim_start. destruct (length s); cbn [trim_start_fuel]; [reflexivity|]. rewrite H. reflexivity. Qed.

Lemma trim_app p s : p <> [] -> strip_prefix p s = None -> trim_start p (p ++ s) = s.
Proof.
  intros Hp H. unfold trim_start. destruct p as [|a p']; [congruence|].
  cbn [app length trim_start_fuel]. change (a :: p' ++ s) with ((a :: p') ++ s). rewrite strip_prefix_app.
  destruct (length (p' ++ s)); cbn [trim_start_fuel]; [reflexivity|]. rewrite H. reflexivity.
Qed.

Lemma not_rparen_match {A} (ts : list token) (x y : A) :
  match ts with TRParen :: _ => False | _ => True end -> match ts with TRParen :: _ => x | _ => y end = y.
Proof. destruct ts as [|[] ?]; try reflexivity; contradiction. Qed.

Section Lambda.
  Variable m : pmode.
  Variable nm : names.
  Variable env : penv.
  Variable rec : list token -> presult.
  Notation sepk := (sep_token (parse_arg_sep m)).

  (* an identifier in operand position is read as a variable *)
  Hypothesis rec_ident : forall n rest, ident_free nm env n = true -> follow 8 rest ->
    rec (TIdent n :: rest) = Some (EVar (trim_start t_xlpm n) None, rest).

  Lemma lambda_param_step p f acc tk :
    param_ok m nm env p = true ->
    lambda_loop m rec (S f) acc (print_param m p ++ sepk :: tk) = lambda_loop m rec f (acc ++ [p]) tk.
  Proof.
    destruct p as [n id o]. unfold param_ok, param_ident, print_param. cbn [lp_name lp_id lp_opt].
    destruct id; [discriminate|]. intro H.
    apply andb_true_iff in H as [H Hpm]. apply andb_true_iff in H as [Hfree Hop].
    destruct (strip_prefix t_xlop n) eqn:Eop; [discriminate|]. destruct (strip_prefix t_xlpm n) eqn:Epm; [discriminate|].
    destruct (pm_xlsx m), o; cbn [app lambda_loop].
    - (* xlsx, optional: _xlop.n *)
      rewrite (rec_ident _ _ Hfree (arg_sep_follow m 8 tk)), (trim_none t_xlpm (t_xlop ++ n)) by reflexivity.
      rewrite is_sep_sep_token, strip_prefix_app. reflexivity.
    - (* xlsx: _xlpm.n *)
      rewrite (rec_ident _ _ Hfree (arg_sep_follow m 8 tk)), (trim_app t_xlpm n) by (discriminate || exact Epm).
      rewrite is_sep_sep_token, Eop. reflexivity.
    - (* [n] *)
      rewrite (rec_ident n (TRBracket :: sepk :: tk) Hfree) by (apply follow_cons_none; reflexivity).
      rewrite (trim_none _ _ Epm), is_sep_sep_token, Eop. reflexivity.
    - (* n *)
      rewrite (rec_ident _ _ Hfree (arg_sep_follow m 8 tk)), (trim_none _ _ Epm), is_sep_sep_token, Eop. reflexivity.
  Qed.

  Section Body.
    Variable body : ast.
    Variable bt : list token.       (* the printed body *)
    Hypothesis body_head : exists t r, bt = t :: r /\ startb t = true.
    Hypothesis rec_body : forall rest, follow 8 rest -> rec (bt ++ rest) = Some (body, rest).

    (* "p1 , p2 , ... body )": what [parse_lambda] sees after "LAMBDA(" *)
    Fixpoint lam_tokens (ps : list lparam) (rest : list token) : list token :=
      match ps with
      | [] => bt ++ TRParen :: rest
      | p :: ps' => print_param m p ++ sepk :: lam_tokens ps' rest
      end.

    Lemma join_items ps rest :
      join sepk (map (print_param m) ps ++ [bt]) ++ TRParen :: rest = lam_tokens ps rest.
    Proof.
      induction ps as [|p ps IH]; [reflexivity|].
      cbn [map app lam_tokens]. rewrite <- IH. destruct (map (print_param m) ps ++ [bt]) as [|y l] eqn:E.
      - destruct (map (print_param m) ps); discriminate E.
      - change (join sepk (print_param m p :: y :: l)) with (print_param m p ++ sepk :: join sepk (y :: l)).
        apply app_cons_assoc.
    Qed.

    Lemma lambda_loop_ok : forall ps acc f rest,
      length ps < f -> forallb (param_ok m nm env) ps = true ->
      lambda_loop m rec f acc (lam_tokens ps rest) = Some (acc ++ ps, body, rest).
    Proof.
      induction ps as [|p ps IH]; intros acc f rest Hf Hok; (destruct f; [cbn in Hf; lia|]).
      - destruct body_head as (t & r & E & Hs). cbn [lam_tokens lambda_loop].
        (* the body does not start with "[" *)
        replace (match bt ++ TRParen :: rest with TLBracket :: r0 => (true, r0) | _ => (false, bt ++ TRParen :: rest) end)
          with (false, bt ++ TRParen :: rest) by (rewrite E; destruct t; try reflexivity; discriminate Hs).
        rewrite rec_body by (apply follow_cons_none; reflexivity).
        rewrite app_nil_r. destruct (parse_arg_sep m); reflexivity.
      - cbn [forallb length] in Hok, Hf. apply andb_true_iff in Hok as [Hp Hok].
        cbn [lam_tokens]. rewrite (lambda_param_step p f acc _ Hp).
        rewrite IH by first [lia|assumption]. rewrite <- app_assoc. reflexivity.
    Qed.

    (* a LAMBDA definition, or its call when "(" follows *)
    Lemma parse_lambda_ok ps f rest :
      length ps < f -> forallb (param_ok m nm env) ps = true ->
      parse_lambda m rec f (lam_tokens ps rest) =
      match rest with
      | TLParen :: r =>
        match args_then_rparen m rec f r with
        | Some (args, r') => Some (ELambdaCall (ELambdaDef ps body) args, r')
        | None => None
        end
      | _ => Some (ELambdaDef ps body, rest)
      end.
    Proof.
      intros Hf Hok. unfold parse_lambda. rewrite not_rparen_match.
      - rewrite (lambda_loop_ok ps [] f rest Hf Hok). destruct rest as [|[] ?]; reflexivity.
      - destruct body_head as (t & r & E & Hs). apply startb_not_rparen in Hs.
        destruct ps as [|p ps]; cbn [lam_tokens]; [rewrite E; destruct t; try exact I; discriminate Hs|].
        unfold print_param. destruct (pm_xlsx m), (lp_opt p); exact I.
    Qed.
  End Body.
End Lambda.
