(* Syntax/GlueProofs.v — on glue-free token lists the lexer reads the printed tokens back one by one. *)
From IronCalc Require Import Base.Prelude Codec.RefA1 Syntax.Token Syntax.Ast Syntax.Printer Syntax.Parser Syntax.Shape.
Local Open Scope nat_scope.

Lemma glue_fuel_id rc : forall f ts, length ts < f -> glue_free rc ts = true -> glue_fuel f rc ts = ts.
Proof.
  induction f as [|f IH]; intros ts Hlen Hfree; [lia|].
  destruct ts as [|t r]; [reflexivity|]. cbn [length] in Hlen.
  assert (IHr : glue_free rc r = true -> glue_fuel f rc r = r) by (intro; apply IH; [lia|assumption]).
  destruct t; cbn [glue_fuel glue_free] in *; try (f_equal; apply IHr; exact Hfree).
  - (* TIllegal *) destruct r; [reflexivity|discriminate].
  - (* TNumber: a colon may follow only in the stored form *)
    destruct r as [|[] r2]; try (f_equal; apply IHr; exact Hfree).
    apply andb_true_iff in Hfree as [-> Hfree]. destruct r2 as [|[] ?]; f_equal; apply IHr; exact Hfree.
  - (* TReference: a colon may follow only where there is no hazard, and no sheet-less reference or range after it *)
    destruct r as [|[] r2]; try (f_equal; apply IHr; exact Hfree).
    destruct r2 as [|[] ?]; try destruct sheet0; try discriminate;
      apply andb_true_iff in Hfree as [Hh Hfree]; apply negb_true_iff in Hh; rewrite Hh; f_equal; apply IHr; exact Hfree.
Qed.

Lemma glue_id rc ts : glue_free rc ts = true -> glue rc ts = ts.
Proof. intro H. unfold glue. apply glue_fuel_id; [lia|exact H]. Qed.
