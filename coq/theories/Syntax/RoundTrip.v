(* Syntax/RoundTrip.v — the round-trip theorem.

   [roundtrip_policy]: for every tree [e] that the parser can return ([image]), that contains no
   [bad_pair] ([no_bad]) and whose user-defined function names are in lower case ([lower_stable]),
       parse_fuel f (print e) = Some (e, [])      for every fuel f >= size e + 2,
   for every node kind, in every display form (any locale, any language, any cell), in the stored
   R1C1 form and in the xlsx form.  [roundtrip_glued] adds [glue_free], under which the lexer reads
   the printed tokens back one by one.

   Method: induction on the size of [e] with the "level / follow set" generalisation packaged in
   [Parses] (Syntax/RoundTripLevels.v).  The obligations that cannot be discharged are exactly
   [bad_child], i.e. the table [Shape.bad_pair] (Syntax/ShapeProofs.v), each entry of which is
   refuted in Syntax/Refuted.v. *)
From Coq Require Import Wf_nat.
From IronCalc Require Import Base.Prelude Codec.RefA1 Syntax.Token Syntax.Ast Syntax.Printer Syntax.Parser
  Syntax.Shape Syntax.GlueProofs Syntax.RoundTripLevels Syntax.RoundTripNodes Syntax.RoundTripArgs Syntax.RoundTripLeaves
  Syntax.RoundTripArrays Syntax.RoundTripLambda.
Local Open Scope nat_scope.

Lemma size_pos e : 1 <= size e.
Proof. destruct e; cbn [size]; lia. Qed.

Lemma length_le_sizes (args : list ast) : length args <= fold_right (fun a n => size a + n) 0 args.
Proof. induction args as [|a tl IH]; cbn [length fold_right]; [lia|]. pose proof (size_pos a). lia. Qed.

Lemma size_in_args a (args : list ast) : In a args -> size a <= fold_right (fun a n => size a + n) 0 args.
Proof.
  induction args as [|x tl IH]; cbn [In fold_right]; [tauto|]. intros [->|H]; [lia|]. specialize (IH H). lia.
Qed.

Section Main.
  Variable m : pmode.
  Variable nm : names.
  Variable env : penv.
  Variable pol : policy.
  (* the policy does not parenthesise a number literal under a unary minus (array elements "-1") *)
  Hypothesis Hneg_num : forall n, pol_neg pol (ENum n) = false.

  Notation pr := (gprint m nm pol).
  Notation xl := (pm_xlsx m).
  Notation pexpr := (p_expr m nm env).
  Notation PS := (Parses m nm env).

  (* what the induction proves for a tree *)
  Definition good (e : ast) : Prop :=
    forall g, size e < g -> PS (pexpr g) (size e) (pr e) e (rank_x xl e).

  Lemma good_head c : good c -> exists t r, pr c = t :: r /\ startb t = true.
  Proof.
    intro Hc. destruct (ps_head (Hc _ (le_n _))) as (t & r & E & Hs & _). exists t, r. auto.
  Qed.

  (* the parser one parenthesis level down reads a good tree back *)
  Lemma rec_closed c g rest :
    good c -> size c + 1 < g -> follow 8 rest -> pexpr g (pr c ++ rest) = Some (c, rest).
  Proof.
    intros Hc Hg Hfo. destruct g as [|g']; [lia|]. cbn [p_expr].
    apply (Parses_closed (Hc g' ltac:(lia)) 5);
      [pose proof (rank_x_le_8 xl c); lia|lia|exact Hfo].
  Qed.

  (* An operand as the printer writes it: in parentheses, or bare where a tree of rank <= q is
     expected.  The premise is the operand's conjunct of [bad_child_with]. *)
  Lemma child_parses g c b q n :
    good c -> size c + 1 < g -> size c <= n -> negb b && (q <? rank_x xl c) = false ->
    PS (pexpr g) n (wrap b (pr c)) c q.
  Proof.
    intros Hc Hg Hn Hq. destruct b; cbn [wrap negb andb] in *.
    - apply (Parses_weaken (n := 0) (k := 0)); [lia|lia|]. apply Parses_paren.
      intros rest Hfo. apply rec_closed; assumption.
    - apply Nat.ltb_ge in Hq. apply (Parses_weaken Hn Hq). apply Hc. lia.
  Qed.

  (* ---- primaries ---------------------------------------------------------------------------- *)
  Lemma good_primary e :
    rank_x xl e = 0 -> head_spec 0 (pr e) ->
    (forall g f rest, size e < g -> size e < f -> follow 0 rest ->
       p_primary m nm env (pexpr g) f (pr e ++ rest) = Some (e, rest)) ->
    good e.
  Proof.
    intros Hr Hh Hp g Hg. rewrite Hr. apply (Parses_of_level 0); [exact Hh|].
    intros f rest Hf Hfo. apply Hp; assumption.
  Qed.

  Lemma ident_primary rec f name rest :
    follow 0 rest ->
    p_primary m nm env rec f (TIdent name :: rest) =
    match sheet_index env None with
    | None => None
    | Some ci =>
      match get_defined_name nm env name ci with
      | Some (sc, fo) => Some (EDefName name sc fo, rest)
      | None => if is_table nm env name then Some (ETable name, rest)
                else Some (EVar (trim_start t_xlpm name) None, rest)
      end
    end.
  Proof. intro Hfo. cbn [p_primary]. by_follow rest Hfo. Qed.

  (* ---- leaves and "-n", also used for array elements ------------------------------------- *)
  Lemma good_bool b : good (EBool b).
  Proof.
    apply good_primary; [reflexivity|apply head_spec_tok; reflexivity|].
    intros g f rest _ _ Hfo. cbn [gprint app p_primary]. by_follow rest Hfo.
  Qed.
  Lemma good_num n : good (ENum n).
  Proof. apply good_primary; [reflexivity|apply head_spec_tok; reflexivity|]. reflexivity. Qed.
  Lemma good_str s : good (EStr s).
  Proof. apply good_primary; [reflexivity|apply head_spec_tok; reflexivity|]. reflexivity. Qed.
  Lemma good_err k : is_terror k (err_tokens nm k) = true -> good (EErr k).
  Proof.
    intro Hi. assert (Hp : pr (EErr k) = [TError k]).
    { cbn [gprint]. unfold is_terror in Hi. destruct (err_tokens nm k) as [|[] [|]]; try discriminate.
      apply Z.eqb_eq in Hi. congruence. }
    apply good_primary; [reflexivity|rewrite Hp; apply head_spec_tok; reflexivity|].
    intros g f rest _ _ _. rewrite Hp. reflexivity.
  Qed.

  Lemma good_neg c : good c -> negb (pol_neg pol c) && (2 <? rank_x xl c) = false -> good (ENeg c).
  Proof. intros Hc Hq g Hg. cbn [size] in *. apply Parses_neg, child_parses; try lia; assumption. Qed.

  Lemma good_elem a : aelem_ok nm a = true -> good (ast_of_aelem a).
  Proof.
    destruct a as [b|[|] n|s|k|]; cbn [ast_of_aelem aelem_ok]; intro H; try discriminate.
    - apply good_bool.
    - apply good_neg; [apply good_num|rewrite Hneg_num; reflexivity].
    - apply good_num.
    - apply good_str.
    - apply good_err; exact H.
  Qed.

  Lemma rec_elem_ok g : 4 <= g -> forall a rest, aelem_ok nm a = true -> follow 8 rest ->
    pexpr g (print_aelem nm a ++ rest) = Some (ast_of_aelem a, rest).
  Proof.
    intros Hg a rest Ha Hfo. rewrite <- (print_ast_of_aelem m nm pol Hneg_num a).
    apply rec_closed; [apply good_elem; exact Ha| |exact Hfo].
    destruct a as [b|[|] n|s|k|]; cbn [ast_of_aelem size]; lia.
  Qed.

  (* ---- arguments -------------------------------------------------------------------------- *)
  Lemma image_arg a : a = EEmpty \/ image_at m nm env true a = image_at m nm env false a.
  Proof. destruct a; auto. Qed.

  Lemma arg_good_of_good a g : good a -> size a + 1 < g -> arg_good m nm pol (pexpr g) a.
  Proof.
    intros Ha Hg. right. split; [apply good_head, Ha|]. intros rest' Hfo. apply rec_closed; assumption.
  Qed.

  (* "( args )" as [args_then_rparen] reads it, the arguments being covered by the induction *)
  Lemma call_args_ok (args : list ast) g fu rest :
    Forall (fun a => image_at m nm env false a = true -> no_bad_with pol xl a = true ->
                     lower_stable nm a = true -> good a) args ->
    args_shape_ok args = true -> forallb (image_at m nm env true) args = true ->
    forallb (no_bad_with pol xl) args = true -> forallb (lower_stable nm) args = true ->
    fold_right (fun a n => size a + n) 0 args + 1 < g -> fold_right (fun a n => size a + n) 0 args < fu ->
    args_then_rparen m (pexpr g) fu (join (sep_token (parse_arg_sep m)) (map pr args) ++ TRParen :: rest)
    = Some (args, rest).
  Proof.
    intros HF Hs Hi Hb Hl Hg Hfu.
    apply args_then_rparen_ok; [pose proof (length_le_sizes args); lia|exact Hs|]. clear Hs Hfu.
    induction HF as [|a tl Ha _ IH]; [constructor|].
    cbn [forallb fold_right] in *. split_and. constructor; [|apply IH; try assumption; lia].
    destruct (image_arg a) as [->|E]; [left; reflexivity|]. rewrite E in *.
    apply arg_good_of_good; [apply Ha; assumption|lia].
  Qed.

  Lemma one_arg_ok e g fu rest :
    good e -> image_at m nm env false e = true -> size e + 1 < g -> 1 < fu ->
    args_then_rparen m (pexpr g) fu (pr e ++ TRParen :: rest) = Some ([e], rest).
  Proof.
    intros He Hi Hg Hfu.
    apply (args_then_rparen_ok m nm pol (pexpr g) rest [e]); [exact Hfu|destruct e; try reflexivity; discriminate Hi|].
    constructor; [apply arg_good_of_good; assumption|constructor].
  Qed.

  (* ---- LAMBDA ------------------------------------------------------------------------------- *)
  Lemma rec_ident_ok g : 2 <= g -> forall n rest, ident_free nm env n = true -> follow 8 rest ->
    pexpr g (TIdent n :: rest) = Some (EVar (trim_start t_xlpm n) None, rest).
  Proof.
    intros Hg n rest Hfree Hfo. destruct g as [|g']; [lia|]. cbn [p_expr].
    assert (P : PS (pexpr g') 0 [TIdent n] (EVar (trim_start t_xlpm n) None) 0).
    { apply (Parses_of_level 0); [apply head_spec_tok; reflexivity|].
      intros f r _ Hf0. cbn [app]. rewrite ident_primary by exact Hf0.
      unfold ident_free in Hfree. destruct (sheet_index env None) as [ci|]; [|discriminate].
      destruct (get_defined_name nm env n ci); [discriminate|]. apply negb_true_iff in Hfree. rewrite Hfree. reflexivity. }
    apply (Parses_closed P 5); [lia|lia|exact Hfo].
  Qed.

  Definition lambda_name : text := if xl then t_xlfn_lambda else t_lambda.

  Lemma lambda_tokens ps body rest :
    pr (ELambdaDef ps body) ++ rest
    = TIdent lambda_name :: TLParen :: lam_tokens m (pr body) ps rest.
  Proof.
    cbn [gprint app]. unfold lambda_name. rewrite <- app_assoc. cbn [app].
    rewrite <- (join_items m (pr body) ps rest). reflexivity.
  Qed.

  Lemma lambda_parse g fu ps body rest :
    good body -> lambda_name_ok m nm = true -> forallb (param_ok m nm env) ps = true ->
    S (length ps + size body) < g -> length ps < fu ->
    parse_call m nm (pexpr g) fu lambda_name (lam_tokens m (pr body) ps rest) =
    match rest with
    | TLParen :: r =>
      match args_then_rparen m (pexpr g) fu r with
      | Some (args, r') => Some (ELambdaCall (ELambdaDef ps body) args, r')
      | None => None
      end
    | _ => Some (ELambdaDef ps body, rest)
    end.
  Proof.
    intros Hgood Hname Hps Hg Hfu. unfold parse_call.
    replace (text_eqb lambda_name t_xlfn_lambda || text_eqb (nm_upper nm lambda_name) t_lambda) with true.
    - apply (parse_lambda_ok m nm env (pexpr g) (rec_ident_ok g ltac:(lia)) body (pr body)); try assumption.
      + apply good_head, Hgood.
      + intros rest' Hfo. apply rec_closed; [exact Hgood|lia|exact Hfo].
    - unfold lambda_name, lambda_name_ok in *. destruct xl; [reflexivity|]. cbn [orb] in Hname.
      rewrite Hname. symmetry. apply orb_true_r.
  Qed.

  (* ---- operators ----------------------------------------------------------------------------- *)
  (* the premise on the operands is [bad_child_with] for the node *)
  Lemma binary_parses j b tok bl br l r g :
    binop_at j tok = Some b -> good l -> good r ->
    negb bl && (3 + j <? rank_x xl l) || negb br && (2 + j <? rank_x xl r) = false ->
    S (size l + size r) < g ->
    PS (pexpr g) (S (size l + size r)) (wrap bl (pr l) ++ tok :: wrap br (pr r)) (mk_bin b l r) (3 + j).
  Proof.
    intros Hop Hl Hr Hbad Hg. apply orb_false_iff in Hbad as [Hbl Hbr].
    apply (Parses_binary m nm env _ j b tok (size l) (size r)); [exact Hop| |]; apply child_parses; try lia; assumption.
  Qed.

  (* ---- the induction ---------------------------------------------------------------------- *)
  Theorem good_all e :
    image_at m nm env false e = true -> no_bad_with pol xl e = true -> lower_stable nm e = true -> good e.
  Proof.
    induction e as [e IH] using (induction_ltof1 _ size). unfold ltof in IH.
    destruct e as [b|n|s|s i p|s i p q|e1 e2|e1 e2|op e1 e2|op e1 e2|e1 e2|f args|ps e|e args|id name args|rows|n s f|n|n i|a e|e|op e1 e2|e|e|e| | ].
    all: intros Hi Hb Hl; cbn [image_at no_bad_with lower_stable] in Hi, Hb, Hl; try discriminate; split_and.
    all: try match goal with H : negb (bad_child_with _ _ _) = true |- _ =>
           apply negb_true_iff in H; cbn [bad_child_with] in H; rename H into Hbad end.
    all: try (assert (G1 : good e1) by (apply IH; [cbn [size]; lia|assumption..]);
              assert (G2 : good e2) by (apply IH; [cbn [size]; lia|assumption..])).
    all: try (assert (G : good e) by (apply IH; [cbn [size]; lia|assumption..])).
    all: try (assert (HFA : Forall (fun a => image_at m nm env false a = true -> no_bad_with pol xl a = true ->
                                    lower_stable nm a = true -> good a) args)
                by (apply Forall_forall; intros a0 Hin; apply IH; pose proof (size_in_args a0 args Hin); cbn [size]; lia)).
    - (* EBool *) apply good_bool.
    - (* ENum *) apply good_num.
    - (* EStr *) apply good_str.
    - (* ERef *) unfold pref_ok in *. destruct (print_pref m p) as [q|] eqn:E; [|discriminate].
      match goal with H : opt_z_eqb _ _ = true |- _ => apply opt_z_eqb_eq in H; subst i end.
      assert (Hp : pr (ERef s (sheet_index env s) p) = [TReference s q]) by (cbn [gprint]; unfold print_ref; rewrite E; reflexivity).
      apply good_primary; [reflexivity|rewrite Hp; apply head_spec_tok; reflexivity|].
      intros g f rest _ _ _. rewrite Hp. cbn [app p_primary]. rewrite (parse_print_pref m _ _ E). reflexivity.
    - (* ERange *)
      match goal with H : range_ok m p q = true |- _ => destruct (parse_range_ok m p q H) as (q1 & q2 & E1 & E2 & E3) end.
      match goal with H : opt_z_eqb _ _ = true |- _ => apply opt_z_eqb_eq in H; subst i end.
      assert (Hp : pr (ERange s (sheet_index env s) p q) = [TRange s q1 q2]) by (cbn [gprint]; unfold print_range; rewrite E1, E2; reflexivity).
      apply good_primary; [reflexivity|rewrite Hp; apply head_spec_tok; reflexivity|].
      intros g f rest _ _ _. rewrite Hp. cbn [app p_primary]. rewrite E3. reflexivity.
    - (* ERangeOp *)
      apply orb_false_iff in Hbad as [Hrl Hrr]. intros g Hg. cbn [size] in *.
      apply Parses_range; apply child_parses; try lia; assumption.
    - (* EConcat *) intros g Hg. apply (binary_parses 4 BConcat TAnd); auto.
    - (* ESum *) intros g Hg. apply (binary_parses 3 (BSum op) (TAddition op)); auto.
    - (* EProd *) intros g Hg. apply (binary_parses 2 (BProd op) (TProduct op)); auto.
    - (* EPow *) intros g Hg. apply (binary_parses 1 BPow TPower); auto.
    - (* EFun *)
      apply good_primary; [reflexivity|cbn [gprint]; destruct (bool_of_name nm (fn_name nm f)); apply head_spec_tok; reflexivity|].
      intros g fu rest Hg Hfu _. cbn [size] in Hg, Hfu. cbn [gprint app]. rewrite <- app_assoc. cbn [app].
      change (arg_sep m) with (parse_arg_sep m). pose proof (call_args_ok args g fu rest HFA) as HA.
      unfold fun_name_ok in *. destruct (bool_of_name nm (fn_name nm f)) as [b|]; cbn [p_primary].
      + rewrite HA by first [assumption|lia].
        match goal with H : (f =? _)%Z = true |- _ => apply Z.eqb_eq in H; rewrite <- H end. reflexivity.
      + unfold parse_call. split_and.
        repeat match goal with H : negb (text_eqb _ _) = true |- _ => apply negb_true_iff in H; rewrite H; clear H end.
        cbn [orb]. rewrite HA by first [assumption|lia].
        destruct (fn_lookup nm (trim_start (t_xlfn ++ t_xlws) (fn_name nm f))) as [k|].
        * match goal with H : (k =? f)%Z = true |- _ => apply Z.eqb_eq in H; subst end. reflexivity.
        * destruct (fn_lookup nm (trim_start t_xlfn (fn_name nm f))) as [k|]; [|discriminate].
          match goal with H : (k =? f)%Z = true |- _ => apply Z.eqb_eq in H; subst end. reflexivity.
    - (* ELambdaDef *)
      apply good_primary; [reflexivity|apply head_spec_tok; reflexivity|].
      intros g fu rest Hg Hfu Hfo. cbn [size] in Hg, Hfu. rewrite lambda_tokens. cbn [p_primary].
      rewrite (lambda_parse g fu ps e rest) by first [assumption|lia]. by_follow rest Hfo.
    - (* ELambdaCall *)
      destruct e as [ | | | | | | | | | | |ps body| | | | | | | | | | | | | | ]; try discriminate.
      cbn [image_at no_bad_with lower_stable] in *. split_and.
      assert (Gb : good body) by (apply IH; [cbn [size]; lia|assumption..]).
      apply good_primary; [reflexivity|apply head_spec_tok; reflexivity|].
      intros g fu rest Hg Hfu Hfo. cbn [size] in Hg, Hfu.
      replace (pr (ELambdaCall (ELambdaDef ps body) args) ++ rest)
        with (pr (ELambdaDef ps body) ++ (TLParen :: join (sep_token (parse_arg_sep m)) (map pr args) ++ TRParen :: rest))
        by (cbn [gprint]; rewrite <- !app_assoc; cbn [app]; rewrite <- !app_assoc; reflexivity).
      rewrite lambda_tokens. cbn [p_primary].
      rewrite (lambda_parse g fu ps body) by first [assumption|lia].
      rewrite call_args_ok by first [assumption|lia]. reflexivity.
    - (* ENamedFun *)
      destruct id; [discriminate|].
      match goal with H : text_eqb (nm_lower nm name) name = true |- _ => apply text_eqb_eq in H; rename H into Hlow end.
      apply good_primary; [reflexivity|apply head_spec_tok; reflexivity|].
      intros g fu rest Hg Hfu _. cbn [size] in Hg, Hfu. cbn [gprint app]. rewrite <- app_assoc. cbn [app].
      change (arg_sep m) with (parse_arg_sep m). rewrite Hlow.
      unfold named_fun_ok in *. destruct (bool_of_name nm name); [discriminate|].
      cbn [p_primary]. unfold parse_call. split_and.
      match goal with H : text_eqb (trim_start t_xlpm name) name = true |- _ => apply text_eqb_eq in H; rename H into Htrim end.
      repeat match goal with H : negb (text_eqb _ _) = true |- _ => apply negb_true_iff in H; rewrite H; clear H end.
      cbn [orb]. rewrite call_args_ok by first [assumption|lia].
      destruct (fn_lookup nm (trim_start (t_xlfn ++ t_xlws) name)); [discriminate|].
      destruct (fn_lookup nm (trim_start t_xlfn name)); [discriminate|].
      rewrite Htrim. reflexivity.
    - (* EArray *)
      destruct rows as [|r0 rs]; [discriminate|]. split_and.
      apply good_primary; [reflexivity|apply head_spec_tok; reflexivity|].
      intros g fu rest Hg Hfu _. cbn [size fold_right length] in Hg, Hfu.
      cbn [gprint app]. rewrite <- app_assoc. cbn [app].
      apply (array_primary_ok m nm env (pexpr g) (rec_elem_ok g ltac:(lia))); first [assumption|lia].
    - (* EDefName *)
      apply good_primary; [reflexivity|apply head_spec_tok; reflexivity|].
      intros g fu rest _ _ Hfo. cbn [gprint app]. rewrite ident_primary by exact Hfo.
      destruct (sheet_index env None) as [ci|]; [|discriminate].
      destruct (get_defined_name nm env n ci) as [[sc fo]|]; [|discriminate]. split_and.
      match goal with H : text_eqb f fo = true |- _ => apply text_eqb_eq in H; subst end.
      match goal with H : opt_z_eqb _ _ = true |- _ => apply opt_z_eqb_eq in H; subst end. reflexivity.
    - (* ETable *)
      apply good_primary; [reflexivity|apply head_spec_tok; reflexivity|].
      intros g fu rest _ _ Hfo. cbn [gprint app]. rewrite ident_primary by exact Hfo.
      destruct (sheet_index env None) as [ci|]; [|discriminate].
      destruct (get_defined_name nm env n ci); [discriminate|]. rewrite Hi. reflexivity.
    - (* EVar *)
      destruct i; [discriminate|].
      apply good_primary; [reflexivity|apply head_spec_tok; reflexivity|].
      intros g fu rest _ _ Hfo. cbn [gprint app]. rewrite ident_primary by exact Hfo.
      unfold var_ok in *. destruct (sheet_index env None) as [ci|]; [|discriminate].
      destruct (get_defined_name nm env n ci); [discriminate|]. split_and.
      match goal with H : negb (is_table nm env n) = true |- _ => apply negb_true_iff in H; rewrite H end.
      match goal with H : text_eqb (trim_start t_xlpm n) n = true |- _ => apply text_eqb_eq in H; rewrite H end.
      reflexivity.
    - (* EAt *)
      match goal with H : negb a = true |- _ => apply negb_true_iff in H; subst a end.
      unfold xl_call_ok in *. destruct xl eqn:Hx.
      + (* xlsx form: _xlfn.SINGLE(e) *)
        apply good_primary; [cbn [rank_x]; rewrite Hx; reflexivity|cbn [gprint]; rewrite Hx; apply head_spec_tok; reflexivity|].
        intros g fu rest Hg Hfu _. cbn [size] in Hg, Hfu. cbn [gprint]. rewrite Hx.
        cbn [app p_primary]. rewrite <- app_assoc. cbn [app]. unfold parse_call.
        match goal with H : _ || negb (text_eqb _ _) = true |- _ => apply negb_true_iff in H; rewrite H end.
        change (text_eqb t_xlfn_single t_xlfn_lambda) with false. cbn [orb].
        rewrite one_arg_ok by first [assumption|lia]. reflexivity.
      + intros g Hg. cbn [size] in Hg. cbn [gprint size rank_x]. rewrite Hx.
        apply Parses_at, child_parses; try lia; [exact G|rewrite Hx; exact Hbad].
    - (* ESpill *)
      unfold xl_call_ok in *. destruct xl eqn:Hx.
      + (* xlsx form: _xlfn.ANCHORARRAY(e) *)
        apply good_primary; [cbn [rank_x]; rewrite Hx; reflexivity|cbn [gprint]; rewrite Hx; apply head_spec_tok; reflexivity|].
        intros g fu rest Hg Hfu _. cbn [size] in Hg, Hfu. cbn [gprint]. rewrite Hx.
        cbn [app p_primary]. rewrite <- app_assoc. cbn [app]. unfold parse_call.
        match goal with H : _ || negb (text_eqb _ _) = true |- _ => apply negb_true_iff in H; rewrite H end.
        change (text_eqb t_xlfn_anchor t_xlfn_lambda) with false. cbn [orb].
        rewrite one_arg_ok by first [assumption|lia]. reflexivity.
      + intros g Hg. cbn [size] in Hg. cbn [gprint size rank_x]. rewrite Hx.
        apply Parses_spill, child_parses; try lia; [exact G|rewrite Hx; exact Hbad].
    - (* ECmp *) intros g Hg. apply (binary_parses 5 (BCmp op) (TCompare op)); auto.
    - (* ENeg *)
      apply good_neg; assumption.
    - (* EPct *)
      intros g Hg. cbn [size] in *. apply Parses_pct, child_parses; try lia; assumption.
    - (* EErr *) apply good_err; exact Hi.
  Qed.

  (* ---- the theorem -------------------------------------------------------------------------- *)
  Theorem roundtrip_policy e :
    image m nm env e = true -> no_bad_with pol xl e = true -> lower_stable nm e = true ->
    forall f, size e + 2 <= f -> parse_fuel m nm env f (pr e) = Some (e, []).
  Proof.
    intros Hi Hb Hl f Hfu. rewrite <- (app_nil_r (pr e)).
    apply rec_closed; [apply good_all; assumption|lia|exact I].
  Qed.

  Theorem roundtrip e :
    image m nm env e = true -> fragment e = true -> no_bad_with pol xl e = true -> lower_stable nm e = true ->
    forall f, size e + 2 <= f -> parse_fuel m nm env f (pr e) = Some (e, []).
  Proof. intros Hi _. apply roundtrip_policy, Hi. Qed.
End Main.

Lemma forallb_Forall {A} (f : A -> bool) l : Forall (fun x => f x = true) l -> forallb f l = true.
Proof. intro H. apply forallb_forall. apply Forall_forall, H. Qed.

(* every node kind is inside the proved fragment *)
Lemma fragment_all e : fragment e = true.
Proof.
  induction e using ast_rect'; cbn [fragment]; repeat (apply andb_true_iff; split); auto using forallb_Forall.
Qed.

(* [stringify] as it is *)
Theorem roundtrip_all m nm env e :
  image m nm env e = true -> no_bad (pm_xlsx m) e = true -> lower_stable nm e = true ->
  forall f, size e + 2 <= f -> parse_fuel m nm env f (print m nm e) = Some (e, []).
Proof. intros Hi Hb Hl. apply (roundtrip_policy m nm env stringify_policy); try assumption. reflexivity. Qed.

Theorem roundtrip_glued m nm env e :
  image m nm env e = true -> no_bad (pm_xlsx m) e = true -> lower_stable nm e = true ->
  glue_free (pm_rc m) (print m nm e) = true ->
  forall f, size e + 2 <= f -> parse_fuel m nm env f (glue (pm_rc m) (print m nm e)) = Some (e, []).
Proof.
  intros Hi Hb Hl Hg f Hfu. rewrite (GlueProofs.glue_id _ _ Hg). apply roundtrip_all; assumption.
Qed.
