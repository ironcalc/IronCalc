(* Syntax/RoundTripArrays.v — round-trip proof: array literals ([parse_array_row] and the row
   loop of [parse_primary]).  Every element is read by [parse_expr] and converted back. *)
From IronCalc Require Import Base.Prelude Codec.RefA1 Syntax.Token Syntax.Ast Syntax.Printer Syntax.Parser
  Syntax.Shape Syntax.RoundTripLevels Syntax.RoundTripNodes.
Local Open Scope nat_scope.

(* the tree [parse_expr] makes of an array element *)
Definition ast_of_aelem (a : aelem) : ast :=
  match a with
  | ABool b => EBool b
  | ANum false n => ENum n
  | ANum true n => ENeg (ENum n)
  | AStr s => EStr s
  | AErr k => EErr k
  | AEmpty => ENum [48%Z]
  end.

Section Arrays.
  Variable m : pmode.
  Variable nm : names.
  Variable env : penv.
  Variable rec : list token -> presult.
  Variable pol : policy.
  Hypothesis Hneg_num : forall n, pol_neg pol (ENum n) = false.

  Notation colsep := (sep_token (parse_arg_sep m)).

  Lemma print_ast_of_aelem a : gprint m nm pol (ast_of_aelem a) = print_aelem nm a.
  Proof. destruct a as [b|[|] n|s|k|]; try reflexivity. cbn [ast_of_aelem gprint]. rewrite Hneg_num. reflexivity. Qed.

  Lemma to_aelem_of a : aelem_ok nm a = true -> to_aelem (ast_of_aelem a) = Some a.
  Proof. destruct a as [b|[|] n|s|k|]; try reflexivity. discriminate. Qed.

  (* every well-formed element is read back by [rec] (proved by the main induction) *)
  Hypothesis rec_elem : forall a rest, aelem_ok nm a = true -> follow 8 rest ->
    rec (print_aelem nm a ++ rest) = Some (ast_of_aelem a, rest).

  Section Row.
    (* what comes after the row: neither part of an element nor a column separator *)
    Variable rest : list token.
    Hypothesis rest_follow : follow 8 rest.
    Hypothesis rest_not_sep : match rest with t :: _ => is_sep (parse_arg_sep m) t = false | [] => True end.

    Definition row_tail (tl : list aelem) : list token :=
      flat_map (fun y => colsep :: y) (map (print_aelem nm) tl) ++ rest.

    Lemma row_tail_cons a tl : row_tail (a :: tl) = colsep :: print_aelem nm a ++ row_tail tl.
    Proof. unfold row_tail. cbn [map flat_map]. rewrite <- app_assoc. reflexivity. Qed.

    Lemma row_tail_follow tl : follow 8 (row_tail tl).
    Proof. destruct tl; [exact rest_follow|]. rewrite row_tail_cons. apply arg_sep_follow. Qed.

    Lemma row_loop_ok : forall tl acc f,
      length tl < f -> forallb (aelem_ok nm) tl = true ->
      row_loop m rec f acc (row_tail tl) = Some (acc ++ tl, rest).
    Proof.
      induction tl as [|a tl IH]; intros acc f Hf Hok; (destruct f; [cbn in Hf; lia|]).
      - unfold row_tail. cbn [map flat_map app row_loop]. rewrite app_nil_r.
        destruct rest as [|t r]; [reflexivity|]. rewrite rest_not_sep. reflexivity.
      - cbn [forallb length] in Hok, Hf. apply andb_true_iff in Hok as [Ha Hok].
        rewrite row_tail_cons. cbn [row_loop]. rewrite is_sep_sep_token.
        rewrite (rec_elem a _ Ha (row_tail_follow tl)), (to_aelem_of a Ha).
        rewrite IH by first [lia|assumption]. rewrite <- app_assoc. reflexivity.
    Qed.

    Lemma parse_array_row_ok a tl f :
      length tl < f -> forallb (aelem_ok nm) (a :: tl) = true ->
      parse_array_row m rec f (join (sep_token (print_col_sep m)) (map (print_aelem nm) (a :: tl)) ++ rest)
      = Some (a :: tl, rest).
    Proof.
      intros Hf Hok. cbn [forallb] in Hok. apply andb_true_iff in Hok as [Ha Hok].
      change (print_col_sep m) with (parse_arg_sep m). cbn [map]. rewrite join_flat. fold (row_tail tl).
      unfold parse_array_row. rewrite (rec_elem a _ Ha (row_tail_follow tl)), (to_aelem_of a Ha).
      apply (row_loop_ok tl [a] f Hf Hok).
    Qed.
  End Row.

  (* ---- the rows ------------------------------------------------------------------------------ *)
  Section Rows.
    Variable rest : list token.
    Notation rowsep := (sep_token (print_row_sep m)).
    Notation row_tokens := (fun row => join (sep_token (print_col_sep m)) (map (print_aelem nm) row)).

    Definition rows_tail (rs : list (list aelem)) : list token :=
      flat_map (fun y => rowsep :: y) (map row_tokens rs) ++ TRBrace :: rest.

    Lemma rows_tail_cons r rs : rows_tail (r :: rs) = rowsep :: row_tokens r ++ rows_tail rs.
    Proof. unfold rows_tail. cbn [map flat_map]. rewrite <- app_assoc. reflexivity. Qed.

    (* The printer separates rows by ";" or "/", the parser by ";" or "\": more than one row comes
       back only where the decimal separator is "." *)
    Lemma rows_tail_ends_row rs : (rs <> [] -> pm_dot m = true) ->
      follow 8 (rows_tail rs) /\
      match rows_tail rs with t :: _ => is_sep (parse_arg_sep m) t = false | [] => True end.
    Proof.
      intro Hdot. destruct rs as [|r rs].
      - split; [exact I|]. cbn [rows_tail map flat_map app]. destruct (parse_arg_sep m); reflexivity.
      - rewrite rows_tail_cons. unfold print_row_sep, parse_arg_sep. rewrite Hdot by discriminate.
        split; [exact I|reflexivity].
    Qed.

    Lemma rows_row_ok rs a tl f : (rs <> [] -> pm_dot m = true) ->
      length tl < f -> forallb (aelem_ok nm) (a :: tl) = true ->
      parse_array_row m rec f (row_tokens (a :: tl) ++ rows_tail rs) = Some (a :: tl, rows_tail rs).
    Proof. intro Hdot. destruct (rows_tail_ends_row rs Hdot). apply parse_array_row_ok; assumption. Qed.

    Lemma rows_loop_ok len : forall rs acc f,
      (rs <> [] -> pm_dot m = true) -> 1 <= len ->
      forallb (fun r => Nat.eqb (length r) len) rs = true -> forallb (forallb (aelem_ok nm)) rs = true ->
      length rs + len < f ->
      rows_loop m rec f len acc (rows_tail rs) = Some (acc ++ rs, TRBrace :: rest).
    Proof.
      induction rs as [|r rs IH]; intros acc f Hdot Hlen Hl Hok Hf; (destruct f; [lia|]).
      - cbn [rows_tail map flat_map app rows_loop]. rewrite app_nil_r.
        unfold parse_row_sep. destruct (pm_dot m); reflexivity.
      - specialize (Hdot ltac:(discriminate)). cbn [forallb length] in Hl, Hok, Hf.
        apply andb_true_iff in Hl as [Hr Hl]. apply andb_true_iff in Hok as [Ho Hok]. apply Nat.eqb_eq in Hr.
        rewrite rows_tail_cons. cbn [rows_loop].
        replace (is_sep (parse_row_sep m) rowsep) with true
          by (unfold parse_row_sep, print_row_sep; rewrite Hdot; reflexivity).
        destruct r as [|a tl]; [cbn [length] in Hr; lia|]. cbn [length] in Hr.
        rewrite (rows_row_ok rs a tl f (fun _ => Hdot)) by first [exact Ho|lia].
        cbn [length]. rewrite Hr, Nat.eqb_refl.
        rewrite (IH _ f (fun _ => Hdot) Hlen Hl Hok) by lia. rewrite <- app_assoc. reflexivity.
    Qed.

    (* the premises are the conjuncts of [image_at] for an array *)
    Lemma array_primary_ok r0 rs f :
      negb (Nat.eqb (length r0) 0) = true ->
      forallb (fun r => Nat.eqb (length r) (length r0)) (r0 :: rs) = true ->
      forallb (forallb (aelem_ok nm)) (r0 :: rs) = true ->
      pm_dot m || Nat.eqb (length (r0 :: rs)) 1 = true ->
      S (length rs + length r0) < f ->
      p_primary m nm env rec f (TLBrace :: join rowsep (map row_tokens (r0 :: rs)) ++ TRBrace :: rest)
      = Some (EArray (r0 :: rs), rest).
    Proof.
      intros H0 Hl Hok Hd Hf. apply negb_true_iff, Nat.eqb_neq in H0.
      assert (Hdot : rs <> [] -> pm_dot m = true).
      { intro Hne. destruct rs; [congruence|]. rewrite orb_false_r in Hd. exact Hd. }
      cbn [forallb] in Hl, Hok. apply andb_true_iff in Hl as [_ Hl]. apply andb_true_iff in Hok as [Ho Hok].
      cbn [p_primary map]. rewrite join_flat. fold (rows_tail rs).
      destruct r0 as [|a tl]; [cbn [length] in H0; lia|]. cbn [length] in Hf.
      rewrite rows_row_ok by first [exact Hdot|exact Ho|lia].
      rewrite (rows_loop_ok (length (a :: tl)) rs [a :: tl] f) by first [assumption|cbn [length]; lia].
      reflexivity.
    Qed.
  End Rows.
End Arrays.
