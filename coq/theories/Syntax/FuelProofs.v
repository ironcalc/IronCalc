(* Syntax/FuelProofs.v — the default fuel of [Parser.parse] (2 * tokens + 3) is enough for the
   printed form of every tree: size e <= 2 * length (print e) + 1. *)
From IronCalc Require Import Base.Prelude Codec.RefA1 Syntax.Token Syntax.Ast Syntax.Printer Syntax.Parser
  Syntax.Shape Syntax.RoundTrip Syntax.FixedProofs.
Local Open Scope nat_scope.

Lemma join_len s (l : list (list token)) : length (concat l) + length l <= length (join s l) + 1.
Proof.
  induction l as [|x l IH]; [cbn; lia|].
  destruct l as [|y l'].
  - cbn [join concat length]. rewrite app_nil_r. lia.
  - change (join s (x :: y :: l')) with (x ++ s :: join s (y :: l')).
    cbn [concat length] in *. rewrite !app_length in *. cbn [length]. lia.
Qed.

(* pieces [x] printed as [g x] and joined, each of weight [w x] at most twice its length plus one *)
Lemma join_bound {A} (w : A -> nat) (g : A -> list token) s (l : list A) :
  Forall (fun x => w x <= 2 * length (g x) + 1) l ->
  fold_right (fun x n => w x + n) 0 l + length l <= 2 * length (join s (map g l)) + 2.
Proof.
  intro H. pose proof (join_len s (map g l)) as J. rewrite map_length in J.
  enough (fold_right (fun x n => w x + n) 0 l <= 2 * length (concat (map g l)) + length l) by lia.
  clear J. induction H as [|x tl Hx _ IH]; cbn [fold_right map concat length]; [lia|]. rewrite app_length. lia.
Qed.

Lemma wrap_length b (ts : list token) : length (wrap b ts) = length ts + (if b then 2 else 0).
Proof. destruct b; cbn [wrap length]; [rewrite app_length; cbn [length]|]; lia. Qed.

Section Fuel.
  Variable m : pmode.
  Variable nm : names.
  Variable env : penv.
  Variable pol : policy.
  Notation pr := (gprint m nm pol).

  Definition bounded (e : ast) : Prop := size e <= 2 * length (pr e) + 1.

  (* Every node costs one unit of fuel and prints at least one token of its own, or a separator
     (an empty argument prints nothing, but a list of n arguments has n - 1 separators and the
     two parentheses).  This holds of every tree, parser image or not. *)
  Lemma bounded_all e : bounded e.
  Proof.
    unfold bounded. induction e using ast_rect'.
    all: try match goal with HF : Forall _ ?args |- _ =>
           apply (join_bound size pr (sep_token (arg_sep m))) in HF end.
    all: cbn [size gprint length]; rewrite ?app_length; cbn [length]; rewrite ?wrap_length; try lia.
    - (* ELambdaDef: the parameters are not even counted on the token side *)
      pose proof (join_len (sep_token (arg_sep m)) (map (print_param m) ps ++ [pr e])) as J.
      rewrite concat_app, !app_length, map_length in J. cbn [concat length] in J. rewrite app_nil_r in J. lia.
    - (* ELambdaCall: a variable in function position prints as one token, like the variable *)
      destruct e; rewrite app_length; cbn [gprint length] in *; lia.
    - (* EArray: a row of k elements has k - 1 separators *)
      assert (J : Forall (fun row => length row <=
                    2 * length (join (sep_token (print_col_sep m)) (map (print_aelem nm) row)) + 1) rows).
      { apply Forall_forall. intros row _.
        pose proof (join_len (sep_token (print_col_sep m)) (map (print_aelem nm) row)) as J.
        rewrite map_length in J. lia. }
      apply (join_bound (@length aelem) _ (sep_token (print_row_sep m))) in J. lia.
    - (* EAt *) destruct (pm_xlsx m); cbn [length]; rewrite ?app_length, ?wrap_length; cbn [length]; lia.
    - (* ESpill *) destruct (pm_xlsx m); rewrite ?app_length, ?wrap_length; cbn [length]; rewrite ?app_length; cbn [length]; lia.
  Qed.

  Theorem size_le_tokens e : forall arg, image_at m nm env arg e = true -> bounded e.
  Proof. intros _ _. apply bounded_all. Qed.
End Fuel.

(* the round trip with the parser's own fuel *)
Theorem roundtrip_parse m nm env e :
  image m nm env e = true -> no_bad (pm_xlsx m) e = true -> lower_stable nm e = true ->
  parse m nm env (print m nm e) = Some (e, []).
Proof.
  intros Hi Hb Hl. unfold parse. apply roundtrip_all; try assumption.
  pose proof (bounded_all m nm stringify_policy e) as B. unfold bounded in B. unfold print. lia.
Qed.

Theorem roundtrip_parse_fixed m nm env e :
  image m nm env e = true -> lower_stable nm e = true ->
  parse m nm env (print_fixed m nm e) = Some (e, []).
Proof.
  intros Hi Hl. unfold parse. apply roundtrip_fixed; try assumption.
  pose proof (bounded_all m nm fixed_policy e) as B. unfold bounded in B. unfold print_fixed. lia.
Qed.

Theorem roundtrip_parse_glued m nm env e :
  image m nm env e = true -> no_bad (pm_xlsx m) e = true -> lower_stable nm e = true ->
  glue_free (pm_rc m) (print m nm e) = true ->
  parse m nm env (glue (pm_rc m) (print m nm e)) = Some (e, []).
Proof. intros Hi Hb Hl Hg. rewrite (GlueProofs.glue_id _ _ Hg). apply roundtrip_parse; assumption. Qed.
