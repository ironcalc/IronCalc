(* Syntax/PrinterMovedProofs.v — proofs about Syntax/PrinterMoved.v (C16). *)
From IronCalc Require Import Base.Prelude Codec.RefA1 Syntax.Token Syntax.Ast Syntax.Printer Syntax.Parser
  Syntax.Shape Syntax.RoundTrip Syntax.FuelProofs Syntax.PrinterMoved.

(* ---- references: where the moved reference points, read from the target cell ------------------------ *)
(* the cell a stored reference denotes when its formula sits in the target cell *)
Definition tgt_row (mc : mctx) (p : pref) : Z := if p_abs_row p then p_row p else p_row p + (mc_row mc + mc_drow mc).
Definition tgt_col (mc : mctx) (p : pref) : Z := if p_abs_col p then p_col p else p_col p + (mc_col mc + mc_dcol mc).

(* read from the target cell, a rebased reference denotes the cell it denoted from the source cell;
   shifted first, that cell moved by the paste delta *)
Lemma tgt_rebase mc p : tgt_row mc (rebase mc p) = abs_row mc p /\ tgt_col mc (rebase mc p) = abs_col mc p.
Proof.
  unfold tgt_row, tgt_col, rebase, abs_row, abs_col. cbn.
  destruct (p_abs_row p), (p_abs_col p); split; lia.
Qed.

Lemma tgt_rebase_shift mc p :
  tgt_row mc (rebase mc (shift_pref mc p)) = abs_row mc p + mc_drow mc /\
  tgt_col mc (rebase mc (shift_pref mc p)) = abs_col mc p + mc_dcol mc.
Proof.
  unfold tgt_row, tgt_col, rebase, shift_pref, abs_row, abs_col. cbn.
  destruct (p_abs_row p), (p_abs_col p); split; lia.
Qed.

Theorem cut_ref_in_area mc s idx p :
  pref_in_area mc idx p = true ->
  let '(s', p') := move_ref mc s idx p in
  s' = s /\ p_abs_row p' = p_abs_row p /\ p_abs_col p' = p_abs_col p /\
  tgt_row mc (rebase mc p') = abs_row mc p + mc_drow mc /\
  tgt_col mc (rebase mc p') = abs_col mc p + mc_dcol mc.
Proof.
  intro H. unfold move_ref. rewrite H. destruct (tgt_rebase_shift mc p). auto.
Qed.

Theorem cut_ref_outside mc s idx p :
  pref_in_area mc idx p = false ->
  let '(s', p') := move_ref mc s idx p in
  s' = qualify mc s /\ p_abs_row p' = p_abs_row p /\ p_abs_col p' = p_abs_col p /\
  tgt_row mc (rebase mc p') = abs_row mc p /\
  tgt_col mc (rebase mc p') = abs_col mc p.
Proof.
  intro H. unfold move_ref. rewrite H. destruct (tgt_rebase mc p). auto.
Qed.

(* a reference without a sheet name acquires the source sheet's name exactly when the paste goes to another sheet *)
Theorem qualify_spec mc s :
  qualify mc s = match s with
                 | Some n => Some n
                 | None => if text_eqb (mc_tgt_name mc) (mc_src_name mc) then None else Some (mc_src_name mc)
                 end.
Proof. unfold qualify. destruct s; [rewrite andb_false_r; reflexivity|]. rewrite andb_true_r. destruct (text_eqb _ _); reflexivity. Qed.

(* ranges move iff BOTH corners are inside the cut area *)
Theorem cut_range_moves_iff_both mc s idx p1 p2 :
  move_range mc s idx p1 p2 =
    if pref_in_area mc idx p1 && pref_in_area mc idx p2
    then (s, shift_pref mc p1, shift_pref mc p2) else (qualify mc s, p1, p2).
Proof. reflexivity. Qed.

Theorem cut_range_inside mc s idx p1 p2 :
  pref_in_area mc idx p1 = true -> pref_in_area mc idx p2 = true ->
  let '(s', q1, q2) := move_range mc s idx p1 p2 in
  s' = s /\
  tgt_row mc (rebase mc q1) = abs_row mc p1 + mc_drow mc /\ tgt_col mc (rebase mc q1) = abs_col mc p1 + mc_dcol mc /\
  tgt_row mc (rebase mc q2) = abs_row mc p2 + mc_drow mc /\ tgt_col mc (rebase mc q2) = abs_col mc p2 + mc_dcol mc.
Proof.
  intros H1 H2. unfold move_range. rewrite H1, H2. cbn [andb].
  destruct (tgt_rebase_shift mc p1), (tgt_rebase_shift mc p2). auto.
Qed.

Theorem cut_range_not_inside mc s idx p1 p2 :
  pref_in_area mc idx p1 && pref_in_area mc idx p2 = false ->
  let '(s', q1, q2) := move_range mc s idx p1 p2 in
  s' = qualify mc s /\
  tgt_row mc (rebase mc q1) = abs_row mc p1 /\ tgt_col mc (rebase mc q1) = abs_col mc p1 /\
  tgt_row mc (rebase mc q2) = abs_row mc p2 /\ tgt_col mc (rebase mc q2) = abs_col mc p2.
Proof.
  intros H. unfold move_range. rewrite H. destruct (tgt_rebase mc p1), (tgt_rebase mc p2). auto.
Qed.

(* in_area is the rectangle *)
Theorem ref_is_in_area_spec sheet row col a :
  ref_is_in_area sheet row col a = true <->
  ma_sheet a = sheet /\ ma_row a <= row <= ma_row a + ma_height a - 1 /\ ma_col a <= col <= ma_col a + ma_width a - 1.
Proof.
  unfold ref_is_in_area.
  destruct (Z.eqb_spec (ma_sheet a) sheet); cbn [negb]; [|split; [discriminate|lia]].
  destruct (Z.ltb_spec row (ma_row a)); [split; [discriminate|lia]|].
  destruct (Z.ltb_spec (ma_row a + ma_height a - 1) row); [split; [discriminate|lia]|].
  destruct (Z.ltb_spec col (ma_col a)); [split; [discriminate|lia]|].
  destruct (Z.ltb_spec (ma_col a + ma_width a - 1) col); [split; [discriminate|lia]|].
  split; [lia|reflexivity].
Qed.

(* ---- the text written from the source cell is the text of the rebased reference at the target cell ---- *)
Lemma print_pref_rebase mc dot p : print_pref (m_src mc dot) p = print_pref (m_tgt mc dot) (rebase mc p).
Proof.
  destruct (tgt_rebase mc p) as [Hr Hc]. unfold tgt_row, tgt_col, abs_row, abs_col in Hr, Hc.
  unfold print_pref. cbn [pm_rc pm_row pm_col m_src m_tgt]. rewrite Hr, Hc. reflexivity.
Qed.

Lemma print_ref_rebase mc dot nm s p : print_ref (m_src mc dot) nm s p = print_ref (m_tgt mc dot) nm s (rebase mc p).
Proof. unfold print_ref. rewrite print_pref_rebase. reflexivity. Qed.

Lemma print_range_rebase mc dot nm s p q :
  print_range (m_src mc dot) nm s p q = print_range (m_tgt mc dot) nm s (rebase mc p) (rebase mc q).
Proof. unfold print_range. rewrite !print_pref_rebase. reflexivity. Qed.

Lemma forallb_Forall_impl (P : ast -> bool) (Q : ast -> Prop) l :
  Forall (fun x => P x = true -> Q x) l -> forallb P l = true -> Forall Q l.
Proof.
  induction 1 as [|x l Hx _ IH]; cbn [forallb]; intro H; [constructor|].
  apply andb_true_iff in H as [H1 H2]. constructor; auto.
Qed.

Lemma join_one_sep (s1 s2 : token) (l : list (list token)) : (length l <= 1)%nat -> join s1 l = join s2 l.
Proof. destruct l as [|a [|b r]]; cbn [length join]; try reflexivity. lia. Qed.

(* [move_ast] keeps the head constructor, which is all the two parenthesis tests look at *)
Lemma moved_prod_move mc tidx e :
  pol_prod_l moved_policy (move_ast mc tidx e) = moved_prod_left e /\
  pol_prod_r moved_policy (move_ast mc tidx e) = moved_prod_right e.
Proof.
  destruct e; try (split; reflexivity); cbn [move_ast]; (destruct idx as [k|]; [|split; reflexivity]).
  - destruct (move_ref mc sheet k p). split; reflexivity.
  - destruct (move_range mc sheet k p1 p2) as [[? ?] ?]. split; reflexivity.
Qed.

(* the argument list of a call: ',' is the separator of the class (one argument at most elsewhere) *)
Lemma moved_args mc dot nm tidx args :
  Forall (fun e => moved_class dot nm e = true ->
                   print_moved mc dot nm e = gprint (m_tgt mc dot) nm moved_policy (move_ast mc tidx e)) args ->
  dot || Nat.leb (length args) 1 = true -> forallb (moved_class dot nm) args = true ->
  join TComma (map (print_moved mc dot nm) args)
  = join (sep_token (arg_sep (m_tgt mc dot))) (map (gprint (m_tgt mc dot) nm moved_policy) (map (move_ast mc tidx) args)).
Proof.
  intros H Hd Hc. rewrite map_map.
  rewrite (map_ext_Forall _ _ (forallb_Forall_impl _ _ _ H Hc)).
  unfold arg_sep. cbn [pm_dot m_tgt]. destruct dot; [reflexivity|].
  apply join_one_sep. rewrite map_length. apply Nat.leb_le, Hd.
Qed.

(* on its class the moved printer IS the generic printer with [moved_policy], applied to the moved tree
   and read from the target cell *)
Theorem print_moved_is_gprint mc dot nm tidx e :
  moved_class dot nm e = true ->
  print_moved mc dot nm e = gprint (m_tgt mc dot) nm moved_policy (move_ast mc tidx e).
Proof.
  induction e using ast_rect'; cbn [moved_class]; intro Hc; cbn [print_moved move_ast gprint];
    try reflexivity;
    try (apply andb_true_iff in Hc as [Hc1 Hc2]; rewrite (IHe1 Hc1), (IHe2 Hc2); reflexivity);
    try (rewrite (IHe Hc); reflexivity);
    try discriminate.
  - (* EBool *) unfold moved_bool, bool_en_ok in *.
    destruct (bool_of_name nm t_true) as [[|]|] eqn:E1; try discriminate.
    destruct (bool_of_name nm t_false) as [[|]|] eqn:E2; try discriminate.
    destruct b; cbn zeta; [rewrite E1|rewrite E2]; reflexivity.
  - (* ERef *) destruct i as [idx|].
    + destruct (move_ref mc s idx p) as [s' p']. cbn [gprint]. apply print_ref_rebase.
    + cbn [gprint]. apply print_ref_rebase.
  - (* ERange *) destruct i as [idx|].
    + destruct (move_range mc s idx p q) as [[s' q1] q2]. cbn [gprint]. apply print_range_rebase.
    + cbn [gprint]. apply print_range_rebase.
  - (* EProd: the two wrapped operands *)
    apply andb_true_iff in Hc as [Hc1 Hc2]. rewrite (IHe1 Hc1), (IHe2 Hc2).
    rewrite (proj1 (moved_prod_move mc tidx e1)), (proj2 (moved_prod_move mc tidx e2)). reflexivity.
  - (* EFun *)
    apply andb_true_iff in Hc as [Hd Hc]. rewrite (moved_args mc dot nm tidx args H Hd Hc). reflexivity.
  - (* ENamedFun *)
    apply andb_true_iff in Hc as [Hc0 Hc]. apply andb_true_iff in Hc0 as [Hn Hd]. apply text_eqb_eq in Hn.
    rewrite (moved_args mc dot nm tidx args H Hd Hc), Hn. reflexivity.
Qed.

(* ---- C16_cut_print_partial: for the class, with no bad pair relative to [moved_policy], the pasted text
   parses at the target cell to the moved tree ---------------------------------------------------------- *)
Theorem cut_print_partial mc dot nm env tidx e :
  moved_class dot nm e = true ->
  image (m_tgt mc dot) nm env (move_ast mc tidx e) = true ->
  no_bad_with moved_policy false (move_ast mc tidx e) = true ->
  lower_stable nm (move_ast mc tidx e) = true ->
  parse (m_tgt mc dot) nm env (print_moved mc dot nm e) = Some (move_ast mc tidx e, []).
Proof.
  intros Hc Hi Hb Hl. rewrite (print_moved_is_gprint mc dot nm tidx e Hc). unfold parse.
  apply (roundtrip_policy (m_tgt mc dot) nm env moved_policy); try assumption; [reflexivity|].
  pose proof (size_le_tokens (m_tgt mc dot) nm env moved_policy (move_ast mc tidx e) false Hi) as B.
  unfold bounded in B. lia.
Qed.

(* ---- the external pass: which formula cells are skipped ------------------------------------------------- *)
Theorem external_skipped_spec a sheet row col :
  external_skipped a sheet row col = true <->
  sheet = ma_sheet a /\ ma_row a <= row < ma_row a + ma_height a /\ ma_col a <= col < ma_col a + ma_width a.
Proof.
  unfold external_skipped. rewrite !andb_true_iff, Z.eqb_eq, !Z.leb_le, !Z.ltb_lt. intuition lia.
Qed.

(* a formula cell on ANOTHER sheet is never skipped, whatever its coordinates *)
Theorem external_other_sheet_never_skipped a sheet row col :
  sheet <> ma_sheet a -> external_skipped a sheet row col = false.
Proof.
  intro H. unfold external_skipped. destruct (Z.eqb_spec sheet (ma_sheet a)); [contradiction|reflexivity].
Qed.

(* the skipped cells are exactly the cells of the cut area (the ones [ref_is_in_area] moves) *)
Theorem external_skipped_is_in_area a sheet row col :
  external_skipped a sheet row col = ref_is_in_area sheet row col a.
Proof.
  apply Bool.eq_true_iff_eq. rewrite external_skipped_spec, ref_is_in_area_spec. intuition lia.
Qed.

(* ---- copy & paste: the same tree printed at another anchor ------------------------------------------- *)
(* extend_copied_value: parse at the source cell, [to_localized_string] at the target cell: relative
   references are offsets, so the tree IS the translation; reading the pasted text back at the target
   gives the same tree: C09 at the target anchor ([roundtrip_parse]) *)

(* a relative reference that leaves the grid at the target prints "#REF!" (rows above 1, columns outside 1..16384) *)
Theorem copy_offgrid m nm s p :
  pm_rc m = false ->
  let row := if p_abs_row p then p_row p else p_row p + pm_row m in
  let col := if p_abs_col p then p_col p else p_col p + pm_col m in
  (row < 1 \/ col < 1 \/ LAST_COLUMN < col) -> print_ref m nm s p = err_tokens nm 0.
Proof.
  intros Hrc row col H. unfold print_ref, print_pref. rewrite Hrc. fold row. fold col.
  destruct (Z.ltb_spec row 1); [reflexivity|]. destruct (Z.ltb_spec col 1); [reflexivity|].
  destruct (Z.ltb_spec LAST_COLUMN col); [reflexivity|lia].
Qed.

Theorem copy_ongrid m nm s p :
  pm_rc m = false ->
  let row := if p_abs_row p then p_row p else p_row p + pm_row m in
  let col := if p_abs_col p then p_col p else p_col p + pm_col m in
  1 <= row -> 1 <= col <= LAST_COLUMN ->
  print_ref m nm s p = [TReference s {| p_row := row; p_col := col; p_abs_col := p_abs_col p; p_abs_row := p_abs_row p |}].
Proof.
  intros Hrc row col H1 H2. unfold print_ref, print_pref. rewrite Hrc. fold row. fold col.
  destruct (Z.ltb_spec row 1); [lia|]. destruct (Z.ltb_spec col 1); [lia|].
  destruct (Z.ltb_spec LAST_COLUMN col); [lia|reflexivity].
Qed.

(* ... but not beyond the last ROW: there is no such test in stringify_reference (finding F41 of C12) *)
Theorem copy_row_overflow_refuted :
  let m := {| pm_rc := false; pm_xlsx := false; pm_dot := true; pm_row := LAST_ROW; pm_col := 1 |} in
  let p := {| p_row := 1; p_col := 0; p_abs_col := false; p_abs_row := false |} in
  forall nm, print_ref m nm None p = [TReference None {| p_row := LAST_ROW + 1; p_col := 1; p_abs_col := false; p_abs_row := false |}].
Proof. intros m p nm. reflexivity. Qed.

(* ---- C16_cut_print_refuted: witnesses ---------------------------------------------------------------- *)
Definition nm_en0 : names :=
  {| fn_name := fun _ => [70]; fn_lookup := fun _ => None;
     bool_of_name := fun t => if text_eqb t t_true then Some true else if text_eqb t t_false then Some false else None;
     fn_true := 0; fn_false := 1; nm_lower := fun t => t; nm_upper := fun t => t; err_tokens := fun k => [TError k] |}.
(* a language whose booleans are not TRUE / FALSE *)
Definition nm_es0 : names :=
  {| fn_name := fun _ => [70]; fn_lookup := fun _ => None;
     bool_of_name := fun t => if text_eqb t [86;69;82;68;65;68;69;82;79] then Some true else if text_eqb t [70;65;76;83;79] then Some false else None;
     fn_true := 0; fn_false := 1; nm_lower := fun t => t; nm_upper := fun t => t; err_tokens := fun k => [TError k] |}.
Definition env_m : penv := {| pe_sheets := [[83]]; pe_ctx_sheet := [83]; pe_defnames := []; pe_tables := [] |}.
(* cut A1 (a 1x1 area on sheet 0) and paste it at C4 of the same sheet *)
Definition mc0 : mctx :=
  {| mc_src_name := [83]; mc_row := 1; mc_col := 1;
     mc_area := {| ma_sheet := 0; ma_row := 1; ma_col := 1; ma_width := 1; ma_height := 1 |};
     mc_tgt_name := [83]; mc_drow := 3; mc_dcol := 2 |}.
Definition tidx0 (s : option text) (i : option Z) : option Z := i.
Definition k1 := ENum [49]. Definition k2 := ENum [50]. Definition k3 := ENum [51].

Definition cut_refutes (dot : bool) (nm : names) (w : ast) : Prop :=
  image (m_tgt mc0 dot) nm env_m (move_ast mc0 tidx0 w) = true /\
  parse (m_tgt mc0 dot) nm env_m (print_moved mc0 dot nm w) <> Some (move_ast mc0 tidx0 w, []).

Ltac refute := split; [vm_compute; reflexivity|vm_compute; discriminate].
(* =1-(2-3) pastes as =1-2-3 *)
Theorem cut_refuted_sub_sub : cut_refutes true nm_en0 (ESum SMinus k1 (ESum SMinus k2 k3)). Proof. refute. Qed.
(* =-(1+2) pastes as =-1+2 *)
Theorem cut_refuted_neg_sum : cut_refutes true nm_en0 (ENeg (ESum SAdd k1 k2)). Proof. refute. Qed.
(* =(1+2)^2 pastes as =1+2^2 *)
Theorem cut_refuted_pow_sum : cut_refutes true nm_en0 (EPow (ESum SAdd k1 k2) k2). Proof. refute. Qed.
(* =2^(3^2) pastes as =2^3^2 *)
Theorem cut_refuted_pow_pow : cut_refutes true nm_en0 (EPow k2 (EPow k3 k2)). Proof. refute. Qed.
(* =1&(2=3) pastes as =1&2=3 *)
Theorem cut_refuted_concat_cmp : cut_refutes true nm_en0 (EConcat k1 (ECmp CEq k2 k3)). Proof. refute. Qed.
(* =(1&2)+3 pastes as =1&2+3 *)
Theorem cut_refuted_sum_concat : cut_refutes true nm_en0 (ESum SAdd (EConcat k1 k2) k3). Proof. refute. Qed.
(* =(1+2)% pastes as =1+2% *)
Theorem cut_refuted_pct_sum : cut_refutes true nm_en0 (EPct (ESum SAdd k1 k2)). Proof. refute. Qed.
(* =(2*3)^2 pastes as =2*3^2 *)
Theorem cut_refuted_pow_prod : cut_refutes true nm_en0 (EPow (EProd PTimes k2 k3) k2). Proof. refute. Qed.
(* ={1,2;3,4} pastes as ={{1;2},{3;4}} *)
Theorem cut_refuted_array :
  cut_refutes true nm_en0 (EArray [[ANum false [49]; ANum false [50]]; [ANum false [51]; ANum false [52]]]).
Proof. refute. Qed.
(* any two-argument call in a ';' locale: f(1;2) pastes as f(1,2) *)
Theorem cut_refuted_arg_separator : cut_refutes false nm_en0 (ENamedFun None [102] [k1; k2]). Proof. refute. Qed.
(* a boolean in a language whose booleans are not TRUE/FALSE: VERDADERO pastes as TRUE (not a token in that language) *)
Theorem cut_refuted_boolean_english : cut_refutes true nm_es0 (EBool true). Proof. refute. Qed.
(* a user function with an upper-case letter round-trips here (the moved printer does NOT lower-case it),
   unlike [stringify] (F62): recorded for completeness *)
Example cut_named_function_kept :
  parse (m_tgt mc0 true) nm_en0 env_m (print_moved mc0 true nm_en0 (ENamedFun None [70;111] [k1])) = Some (ENamedFun None [70;111] [k1], []).
Proof. vm_compute. reflexivity. Qed.

(* non-vacuity of cut_print_partial: =A1*(B2+1)-SUMX($A$1:A1;B7) cut from A1 (area A1) and pasted at C4 *)
Example cut_print_partial_nonvacuous :
  let a1 := {| p_row := 0; p_col := 0; p_abs_col := false; p_abs_row := false |} in
  let b2 := {| p_row := 1; p_col := 1; p_abs_col := false; p_abs_row := false |} in
  let aa := {| p_row := 1; p_col := 1; p_abs_col := true; p_abs_row := true |} in
  let e := ESum SMinus (EProd PTimes (ERef None (Some 0) a1) (ESum SAdd (ERef None (Some 0) b2) k1))
                (ENamedFun None [102] [ERange None (Some 0) aa a1; ERef None (Some 0) b2]) in
  moved_class true nm_en0 e = true /\
  image (m_tgt mc0 true) nm_en0 env_m (move_ast mc0 tidx0 e) = true /\
  no_bad_with moved_policy false (move_ast mc0 tidx0 e) = true /\
  move_ast mc0 tidx0 e <> e /\
  parse (m_tgt mc0 true) nm_en0 env_m (print_moved mc0 true nm_en0 e) = Some (move_ast mc0 tidx0 e, []).
Proof. vm_compute. repeat split. discriminate. Qed.
