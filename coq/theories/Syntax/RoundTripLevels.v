(* Syntax/RoundTripLevels.v — the generalisation the round-trip induction runs on (the theorem
   itself is in Syntax/RoundTrip.v): follow sets, first tokens, the operator loops, [Parses].

   [Parses] packages, for a token list [ts] and a tree [c], what every grammar level from [kmin]
   upwards does on [ts ++ rest]:
     - the four tight levels (primary, implicit, range, power) return [c] and leave [rest],
       provided [rest] does not start with a token those levels continue on ([follow]); the power
       level is stated up to its postfix-% loop ([percents c rest]) so that "x%%" and "-x%" go
       through;
     - the five binary levels are stated in continuation form: whatever the level's loop makes of
       the tree [c] and [rest] is what the level makes of [ts ++ rest] — this is what copes with
       left-associative chains without a follow condition at the level itself;
     - the first token of [ts] is not one an enclosing construct would take for its own
       ([head_spec]: a closing parenthesis or separator; a sign in front of a tight operand, which
       [parse_power] would swallow; an "@" in front of a primary). *)
From IronCalc Require Import Base.Prelude Codec.RefA1 Syntax.Token Syntax.Ast Syntax.Printer Syntax.Parser Syntax.Shape.

Local Open Scope nat_scope.

Ltac split_and :=
  repeat match goal with
  | H : _ && _ = true |- _ => apply andb_true_iff in H; destruct H
  end.

(* ---- follow sets --------------------------------------------------------------------------- *)
(* the level at which a token continues an expression that is already complete *)
Definition cont_level (t : token) : option nat :=
  match t with
  | TLParen => Some 0 | TSpill => Some 1 | TColon => Some 2 | TPercent => Some 3
  | TPower => Some 4 | TProduct _ => Some 5 | TAddition _ => Some 6 | TAnd => Some 7 | TCompare _ => Some 8
  | _ => None
  end.

Definition follow (k : nat) (rest : list token) : Prop :=
  match rest with
  | [] => True
  | t :: _ => match cont_level t with Some j => k < j | None => True end
  end.

Lemma follow_mono k k' rest : follow k rest -> k' <= k -> follow k' rest.
Proof. destruct rest as [|t r]; cbn [follow]; [auto|]. destruct (cont_level t); [lia|auto]. Qed.

Lemma follow_cons_none k t r : cont_level t = None -> follow k (t :: r).
Proof. intro H. cbn [follow]. rewrite H. exact I. Qed.

(* [H : follow k rest] and the goal matches on the head of [rest] to see whether a level goes on:
   it does not. *)
Ltac by_follow rest H :=
  destruct rest as [|[] ?]; cbn [follow cont_level] in H; try reflexivity; try contradiction; lia.

Lemma percents_stop c rest : follow 3 rest -> percents c rest = (c, rest).
Proof. intro H. by_follow rest H. Qed.

(* the operators of binary level j continue at level 3 + j *)
Lemma binop_level j t b : binop_at j t = Some b -> 1 <= j /\ cont_level t = Some (3 + j).
Proof. destruct j as [|[|[|[|[|[|j]]]]]], t; try discriminate; intros _; split; try reflexivity; lia. Qed.

(* ---- loops ------------------------------------------------------------------------------- *)
Section Loops.
  Variable sub : list token -> presult.

  Lemma loop_bin_mono j f1 : forall f2 t ts x,
    f1 <= f2 -> loop_bin sub j f1 t ts = Some x -> loop_bin sub j f2 t ts = Some x.
  Proof.
    induction f1 as [|f1 IH]; intros f2 t ts x Hle H; [discriminate|].
    destruct f2 as [|f2]; [lia|]. cbn [loop_bin] in *.
    destruct ts as [|tk r]; [exact H|].
    destruct (binop_at j tk); [|exact H].
    destruct (sub r) as [[p r']|]; [|discriminate]. apply IH; [lia|exact H].
  Qed.

  Lemma loop_bin_stop j f t rest : 1 <= f -> follow (3 + j) rest -> loop_bin sub j f t rest = Some (t, rest).
  Proof.
    intros Hf H. destruct f; [lia|]. cbn [loop_bin]. destruct rest as [|tk r]; [reflexivity|].
    destruct (binop_at j tk) eqn:E; [|reflexivity].
    apply binop_level in E as [_ E]. cbn [follow] in H. rewrite E in H. lia.
  Qed.
End Loops.

(* ---- the first token ---------------------------------------------------------------------- *)
Definition is_sign (t : token) : bool := match t with TAddition _ => true | _ => false end.
Definition is_at (t : token) : bool := match t with TAt => true | _ => false end.
(* a token an operand can start with where an argument, a LAMBDA parameter or ")" could stand *)
Definition startb (t : token) : bool :=
  negb (is_rparen t) && negb (is_sep SepComma t) && negb (is_sep SepSemicolon t)
  && negb (match t with TLBracket => true | _ => false end).

(* [ts] starts like a tree of rank [k] *)
Definition head_spec (k : nat) (ts : list token) : Prop :=
  exists t r, ts = t :: r /\ startb t = true /\ (k <= 2 -> is_sign t = false) /\ (k <= 0 -> is_at t = false).

Lemma head_spec_app k ts x : head_spec k ts -> head_spec k (ts ++ x).
Proof. intros (t & r & -> & H). exists t, (r ++ x). split; [reflexivity|exact H]. Qed.

Lemma head_spec_weaken k k' ts : k' <= k -> head_spec k' ts -> head_spec k ts.
Proof. intros Hk (t & r & E & Hs & H2 & H0). exists t, r. repeat split; auto; intro; [apply H2|apply H0]; lia. Qed.

Lemma head_spec_tok k t r :
  startb t = true -> (k <= 2 -> is_sign t = false) -> (k <= 0 -> is_at t = false) -> head_spec k (t :: r).
Proof. intros. exists t, r. auto. Qed.

Lemma skip_signs_head b ts rest : head_spec 2 ts -> skip_signs b (ts ++ rest) = (b, ts ++ rest).
Proof. intros (t & r & -> & _ & H & _). specialize (H (le_n 2)). destruct t; try reflexivity. discriminate. Qed.

(* ---- what a token list does at every level -------------------------------------------------- *)
Section Levels.
  Variable m : pmode.
  Variable nm : names.
  Variable env : penv.
  Variable rec : list token -> presult.

  Notation p_primary' := (p_primary m nm env rec).
  Notation p_implicit' := (p_implicit m nm env rec).
  Notation p_range' := (p_range m nm env rec).
  Notation p_power' := (p_power m nm env rec).
  Notation p_bin' := (p_bin m nm env rec).

  Section OneList.
    (* the fuel the tokens need, the tokens, the tree they stand for *)
    Variable n : nat.
    Variable ts : list token.
    Variable c : ast.

    Definition at_primary : Prop :=
      forall f rest, n < f -> follow 0 rest -> p_primary' f (ts ++ rest) = Some (c, rest).
    Definition at_implicit : Prop :=
      forall f rest, n < f -> follow 1 rest -> p_implicit' f (ts ++ rest) = Some (c, rest).
    Definition at_range : Prop :=
      forall f rest, n < f -> follow 2 rest -> p_range' f (ts ++ rest) = Some (c, rest).
    Definition at_power : Prop :=
      forall f rest, n < f -> follow 2 rest -> p_power' f (ts ++ rest) = Some (percents c rest).
    (* binary level j (1..5; level 0 of [p_bin] is the power level): continuation form ... *)
    Definition at_bin (j : nat) : Prop :=
      forall F f1 rest x, f1 + n <= F -> follow (2 + j) rest ->
      loop_bin (p_bin' (j - 1) F) j f1 c rest = Some x -> p_bin' j F (ts ++ rest) = Some x.
    (* ... and closed form: nothing of this level or a tighter one follows *)
    Definition closed_bin (j : nat) : Prop :=
      forall F rest, n < F -> follow (3 + j) rest -> p_bin' j F (ts ++ rest) = Some (c, rest).

    Record Parses (kmin : nat) : Prop := {
      ps_head : head_spec kmin ts;
      ps_primary : kmin <= 0 -> at_primary;
      ps_implicit : kmin <= 1 -> at_implicit;
      ps_range : kmin <= 2 -> at_range;
      ps_power : kmin <= 3 -> at_power;
      ps_bin : forall j, 1 <= j -> kmin <= 3 + j -> at_bin j;
    }.

    (* the three steps primary -> implicit -> range -> power *)
    Lemma lift_implicit : head_spec 0 ts -> at_primary -> at_implicit.
    Proof.
      intros (t & r & E & _ & _ & Hat) A0 f rest Hf Hfo. specialize (Hat (le_n 0)).
      assert (H : p_primary' f (ts ++ rest) = Some (c, rest))
        by (apply A0; [exact Hf|apply (follow_mono _ _ _ Hfo); lia]).
      (* no "#" follows, and [ts] does not start with "@" *)
      assert (X : match Some (c, rest) with Some (c', TSpill :: r') => Some (ESpill c', r') | x => x end
                  = Some (c, rest)) by by_follow rest Hfo.
      unfold p_implicit. rewrite E in *. cbn [app] in *. destruct t; try discriminate Hat; rewrite H; exact X.
    Qed.

    Lemma lift_range : at_implicit -> at_range.
    Proof.
      intros A1 f rest Hf Hfo. unfold p_range.
      rewrite A1 by first [exact Hf|apply (follow_mono _ _ _ Hfo); lia]. by_follow rest Hfo.
    Qed.

    Lemma lift_power : head_spec 2 ts -> at_range -> at_power.
    Proof.
      intros Hh A2 f rest Hf Hfo. unfold p_power. rewrite skip_signs_head by exact Hh.
      rewrite A2 by assumption. reflexivity.
    Qed.

    (* from one binary level to the next *)
    Lemma closed_of_power : at_power -> closed_bin 0.
    Proof.
      intros A3 F rest HF Hfo. cbn [p_bin].
      rewrite A3 by first [exact HF|apply (follow_mono _ _ _ Hfo); lia].
      rewrite percents_stop by exact Hfo. reflexivity.
    Qed.

    Lemma closed_of_cont j : at_bin j -> closed_bin j.
    Proof.
      intros B F rest HF Hfo. apply (B F 1); [lia|apply (follow_mono _ _ _ Hfo); lia|].
      apply loop_bin_stop; [lia|exact Hfo].
    Qed.

    Lemma cont_of_closed j : closed_bin j -> at_bin (S j).
    Proof.
      intros C F f1 rest x HF Hfo HL. destruct f1; [discriminate|].
      cbn [p_bin]. rewrite Nat.sub_1_r in HL. cbn [Nat.pred] in HL.
      rewrite C by first [lia|apply (follow_mono _ _ _ Hfo); lia].
      eapply loop_bin_mono; [|exact HL]. lia.
    Qed.

    Lemma closed_bin_up j0 j : j0 <= j -> closed_bin j0 -> closed_bin j.
    Proof. induction 1 as [|j _ IH]; intro C; [exact C|]. apply closed_of_cont, cont_of_closed, IH, C. Qed.

    Lemma at_bin_above j0 j : j0 < j -> closed_bin j0 -> at_bin j.
    Proof. intros Hj C. destruct j; [lia|]. apply cont_of_closed, (closed_bin_up j0); [lia|exact C]. Qed.

    Lemma Parses_closed kmin : Parses kmin -> forall j, kmin <= 3 + j -> closed_bin j.
    Proof.
      intros P [|j] Hk; [apply closed_of_power, (ps_power _ P); lia|].
      apply closed_of_cont, (ps_bin _ P); lia.
    Qed.

    (* tokens that are complete at tight level k are complete at every level from k upwards *)
    Lemma Parses_of_level k :
      head_spec k ts ->
      match k with 0 => at_primary | 1 => at_implicit | 2 => at_range | 3 => at_power | _ => False end ->
      Parses k.
    Proof.
      intros Hh H.
      assert (A : at_power /\ (k <= 2 -> at_range) /\ (k <= 1 -> at_implicit) /\ (k <= 0 -> at_primary)).
      { destruct k as [|[|[|[|k]]]]; [| | | |contradiction].
        - pose proof (lift_range (lift_implicit Hh H)) as A2. repeat split; auto using lift_implicit.
          apply lift_power; [eapply head_spec_weaken; [|exact Hh]; lia|exact A2].
        - repeat split; auto using lift_range; try (intro; lia).
          apply lift_power, lift_range, H. eapply head_spec_weaken; [|exact Hh]. lia.
        - repeat split; auto using lift_power; intro; lia.
        - repeat split; auto; intro; lia. }
      destruct A as (A3 & A2 & A1 & A0). constructor; auto.
      intros j Hj _. apply (at_bin_above 0); [lia|apply closed_of_power, A3].
    Qed.
  End OneList.

  Lemma Parses_weaken n n' ts c k k' : n <= n' -> k <= k' -> Parses n ts c k -> Parses n' ts c k'.
  Proof.
    intros Hn Hk [Hh A0 A1 A2 A3 B].
    constructor; [eapply head_spec_weaken; eauto| | | | |]; repeat intro;
      [apply A0|apply A1|apply A2|apply A3|eapply B]; eauto; lia.
  Qed.
End Levels.

(* what the record and the lemmas about one [Parses] talk about is read off the [Parses] *)
Arguments ps_head {m nm env rec n ts c kmin}.
Arguments ps_primary {m nm env rec n ts c kmin}.
Arguments ps_implicit {m nm env rec n ts c kmin}.
Arguments ps_range {m nm env rec n ts c kmin}.
Arguments ps_power {m nm env rec n ts c kmin}.
Arguments ps_bin {m nm env rec n ts c kmin}.
Arguments Parses_closed {m nm env rec n ts c kmin}.
Arguments Parses_of_level {m nm env rec n ts c} k.
Arguments Parses_weaken {m nm env rec n n' ts c k k'}.
