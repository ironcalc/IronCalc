(* Syntax/RoundTripNodes.v — round-trip proof: one lemma per grammar production (parentheses, "@", "#",
   ":", unary minus, "%", the binary operators): [Parses] of the operands gives [Parses] of the node. *)
From IronCalc Require Import Base.Prelude Codec.RefA1 Syntax.Token Syntax.Ast Syntax.Printer Syntax.Parser
  Syntax.Shape Syntax.RoundTripLevels.

Local Open Scope nat_scope.

Lemma app_cons_assoc {A} (a : list A) x b c : (a ++ x :: b) ++ c = a ++ x :: b ++ c.
Proof. rewrite <- app_assoc. reflexivity. Qed.

(* [a.join(sep)] followed by something, as a head and a flat tail *)
Lemma join_flat (s : token) (x : list token) (xs : list (list token)) (rest : list token) :
  join s (x :: xs) ++ rest = x ++ flat_map (fun y => s :: y) xs ++ rest.
Proof.
  revert x. induction xs as [|y ys IH]; intro x; [reflexivity|].
  change (join s (x :: y :: ys)) with (x ++ s :: join s (y :: ys)).
  rewrite app_cons_assoc, IH. cbn [flat_map]. rewrite <- app_assoc. reflexivity.
Qed.

Section Main.
  Variable m : pmode.
  Variable nm : names.
  Variable env : penv.

  (* ---- parentheses ------------------------------------------------------------------------ *)
  Lemma Parses_paren rec n ts c :
    (forall rest, follow 8 rest -> rec (ts ++ rest) = Some (c, rest)) ->
    Parses m nm env rec n (TLParen :: ts ++ [TRParen]) c 0.
  Proof.
    intro Hrec. apply (Parses_of_level 0); [apply head_spec_tok; reflexivity|].
    intros f rest _ _. cbn [app p_primary]. rewrite app_cons_assoc. cbn [app].
    rewrite Hrec by (apply follow_cons_none; reflexivity). reflexivity.
  Qed.

  (* ---- the tight operators: their operands take the fuel as it is ------------------------- *)
  Notation PS := (Parses m nm env).

  Lemma Parses_at rec n ts c : PS rec n ts c 0 -> PS rec n (TAt :: ts) (EAt false c) 1.
  Proof.
    intro P. apply (Parses_of_level 1); [apply head_spec_tok; try reflexivity; intro; lia|].
    intros f rest Hf Hfo. cbn [app p_implicit].
    rewrite (ps_primary P (le_n _) f _ Hf) by (apply (follow_mono _ _ _ Hfo); lia). reflexivity.
  Qed.

  Lemma Parses_spill rec n ts c : PS rec n ts c 0 -> PS rec n (ts ++ [TSpill]) (ESpill c) 1.
  Proof.
    intro P. apply (Parses_of_level 1).
    { apply head_spec_app, (head_spec_weaken 1 0); [lia|exact (ps_head P)]. }
    intros f rest Hf Hfo. rewrite <- app_assoc. cbn [app].
    pose proof (ps_primary P (le_n _) f (TSpill :: rest) Hf ltac:(cbn [follow cont_level]; lia)) as E.
    (* [ts] does not start with "@", so this is the postfix arm of [parse_implicit] *)
    destruct (ps_head P) as (t & r & Et & _ & _ & Hat). specialize (Hat (le_n 0)).
    unfold p_implicit. rewrite Et in *. cbn [app] in *. destruct t; try discriminate Hat; rewrite E; reflexivity.
  Qed.

  Lemma Parses_range rec n tl tr l r :
    PS rec n tl l 1 -> PS rec n tr r 0 -> PS rec n (tl ++ TColon :: tr) (ERangeOp l r) 2.
  Proof.
    intros Pl Pr. apply (Parses_of_level 2).
    { apply head_spec_app, (head_spec_weaken 2 1); [lia|exact (ps_head Pl)]. }
    intros f rest Hf Hfo. rewrite app_cons_assoc. unfold p_range.
    rewrite (ps_implicit Pl (le_n _) f _ Hf) by (cbn [follow cont_level]; lia).
    rewrite (ps_primary Pr (le_n _) f _ Hf) by (apply (follow_mono _ _ _ Hfo); lia). reflexivity.
  Qed.

  Lemma Parses_neg rec n ts c : PS rec n ts c 2 -> PS rec n (TAddition SMinus :: ts) (ENeg c) 3.
  Proof.
    intro P. apply (Parses_of_level 3); [apply head_spec_tok; try reflexivity; intro; lia|].
    intros f rest Hf Hfo. cbn [app]. unfold p_power. cbn [skip_signs negb].
    rewrite skip_signs_head by exact (ps_head P). rewrite (ps_range P (le_n _) f rest Hf Hfo). reflexivity.
  Qed.

  (* the operand may itself end in "%": the power level is stated up to its postfix loop *)
  Lemma Parses_pct rec n ts c : PS rec n ts c 3 -> PS rec n (ts ++ [TPercent]) (EPct c) 3.
  Proof.
    intro P. apply (Parses_of_level 3); [apply head_spec_app, (ps_head P)|].
    intros f rest Hf Hfo. rewrite <- app_assoc. cbn [app].
    rewrite (ps_power P (le_n _) f (TPercent :: rest) Hf) by (cbn [follow cont_level]; lia). reflexivity.
  Qed.

  (* ---- a binary node ---------------------------------------------------------------------- *)
  Lemma Parses_binary rec j b op nl nr tl tr l r :
    binop_at j op = Some b ->
    PS rec nl tl l (3 + j) -> PS rec nr tr r (2 + j) ->
    PS rec (S (nl + nr)) (tl ++ op :: tr) (mk_bin b l r) (3 + j).
  Proof.
    intros Hop Pl Pr. destruct (binop_level _ _ _ Hop) as [Hj Hcl].
    (* the continuation form at the node's own level: the left operand, then one turn of the loop *)
    assert (B : at_bin m nm env rec (S (nl + nr)) (tl ++ op :: tr) (mk_bin b l r) j).
    { intros F f1 rest x HF Hfo HL. rewrite app_cons_assoc.
      apply (ps_bin Pl j Hj (le_n _) F (S f1)); [lia|cbn [follow]; rewrite Hcl; lia|].
      cbn [loop_bin]. rewrite Hop.
      rewrite (Parses_closed Pr (j - 1)) by first [lia|apply (follow_mono _ _ _ Hfo); lia].
      exact HL. }
    constructor; try (intro; exfalso; lia).
    - apply head_spec_app, (ps_head Pl).
    - intros j' Hj' Hk. destruct (Nat.eq_dec j' j) as [->|Hne]; [exact B|].
      apply (at_bin_above m nm env rec _ _ _ j); [lia|apply closed_of_cont, B].
  Qed.

  (* ---- separators ---------------------------------------------------------------------------- *)
  Lemma is_sep_sep_token s : is_sep s (sep_token s) = true.
  Proof. destruct s; reflexivity. Qed.

  Lemma arg_sep_same : arg_sep m = parse_arg_sep m.
  Proof. reflexivity. Qed.

  Lemma arg_sep_follow k r : follow k (sep_token (parse_arg_sep m) :: r).
  Proof. unfold parse_arg_sep. destruct (pm_dot m); exact I. Qed.

  Lemma startb_not_sep t : startb t = true -> is_sep (parse_arg_sep m) t = false.
  Proof. unfold parse_arg_sep. destruct t, (pm_dot m); try reflexivity; discriminate. Qed.
End Main.
