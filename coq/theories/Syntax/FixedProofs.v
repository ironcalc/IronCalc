(* Syntax/FixedProofs.v — hypothetical: with the three associative cases wrapped as well
   ([Printer.full_policy] = [fixed_policy], the repair F02 as first proposed) no bad pair is left and
   the round trip holds for every tree the parser can return. *)
From IronCalc Require Import Base.Prelude Codec.RefA1 Syntax.Token Syntax.Ast Syntax.Printer Syntax.Parser
  Syntax.Shape Syntax.RoundTrip.
Local Open Scope nat_scope.

Lemma fixed_bad_child xlsx e : bad_child_with fixed_policy xlsx e = false.
Proof.
  destruct e as [ | | | | |l r|l r|op l r|op l r|l r| | | | | | | | |a c|c|op l r|c|c| | | ];
    try reflexivity; cbn [bad_child_with fixed_policy full_policy pol_cmp_l pol_cmp_r pol_concat_l pol_concat_r pol_sum_l pol_sum_r
      pol_prod_l pol_prod_r pol_pow_l pol_pow_r pol_neg pol_pct pol_range_l pol_range_r pol_at pol_spill].
  all: try (destruct c; destruct xlsx; reflexivity).
  all: apply orb_false_iff; split; [destruct l|destruct r]; destruct xlsx; reflexivity.
Qed.

Lemma fixed_no_bad xlsx e : no_bad_with fixed_policy xlsx e = true.
Proof.
  induction e using ast_rect'; cbn [no_bad_with]; rewrite fixed_bad_child; cbn [negb andb];
    repeat (apply andb_true_iff; split); auto using forallb_Forall.
Qed.

(* [stringify] with the repair: no exclusion left *)
Theorem roundtrip_fixed m nm env e :
  image m nm env e = true -> lower_stable nm e = true ->
  forall f, size e + 2 <= f -> parse_fuel m nm env f (print_fixed m nm e) = Some (e, []).
Proof.
  intros Hi Hl. apply (roundtrip_policy m nm env fixed_policy); try assumption; [reflexivity|apply fixed_no_bad].
Qed.
