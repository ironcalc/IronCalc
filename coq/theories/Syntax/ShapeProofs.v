(* Syntax/ShapeProofs.v — the explicit table [bad_pair] and the formula [bad_child]
   ("printed bare although the position only takes a tighter production") are the same predicate. *)
From IronCalc Require Import Base.Prelude Codec.RefA1 Syntax.Token Syntax.Ast Syntax.Printer Syntax.Parser Syntax.Shape.
Local Open Scope nat_scope.

(* A finite table: checked entry by entry.  For a binary parent the two operands are independent
   (both sides are a disjunction of a left and a right term), so they are enumerated one after the
   other, not as pairs. *)
Lemma bad_child_is_table xlsx e : bad_child xlsx e = bad_child_table xlsx e.
Proof.
  destruct e as [ | | | | |l r|l r|[|] l r|op l r|l r| | | | | | | | |a c|c|op l r|c|c| | | ];
    try reflexivity.
  all: try (destruct c, xlsx; reflexivity).
  all: apply (f_equal2 orb); [destruct l|destruct r]; destruct xlsx; reflexivity.
Qed.
