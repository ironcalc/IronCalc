(* Syntax/RenameProofs.v — proofs about Syntax/Rename.v (C17). *)
From IronCalc Require Import Base.Prelude Codec.RefA1 Syntax.Token Syntax.Ast Syntax.Printer Syntax.Parser
  Syntax.Shape Syntax.ShapeProofs Syntax.RoundTrip Syntax.FuelProofs Syntax.Rename Codec.SheetName Codec.SheetNameProofs.
From Coq Require Import Permutation.

(* ---- the node pass touches only the target -------------------------------------------------------- *)
Lemma rename_valid_target i n s k : rename_valid i n s k = target_field i n s (Some k).
Proof. unfold rename_valid, target_field. destruct s; cbn [is_some]; destruct (k =? i); reflexivity. Qed.

Lemma rename_wrong_ref_id n s : rename_wrong_ref n s = s.
Proof. destruct s; reflexivity. Qed.

Lemma Forall2_map_pass (R : ast -> ast -> Prop) (f : ast -> ast) l :
  Forall (fun x => R x (f x)) l -> Forall2 R l (map f l).
Proof. induction 1; cbn [map]; constructor; auto. Qed.

(* the statement at full strength (since commit 059fa54 the WrongRangeKind arm is empty) *)
Theorem rename_only_target i n e : only_target i n e (rename_node i n e).
Proof.
  induction e using ast_rect'; cbn [rename_node];
    try (apply OT_leaf; reflexivity);
    try (constructor; auto using Forall2_map_pass; fail).
  - (* ERef *) destruct i0 as [k|]; [rewrite rename_valid_target|rewrite rename_wrong_ref_id]; constructor.
  - (* ERange *) destruct i0 as [k|]; [rewrite rename_valid_target|]; constructor.
Qed.

(* ---- regression: the witness of the former finding F12 ------------------------------------------- *)
Definition pA1 : pref := {| p_row := 0; p_col := -3; p_abs_col := false; p_abs_row := false |}.
Definition pA2 : pref := {| p_row := 1; p_col := -3; p_abs_col := false; p_abs_row := false |}.
Definition t_ghost : text := [71;104;111;115;116].                 (* "Ghost" *)
Definition t_renamed : text := [82;101;110;97;109;101;100].         (* "Renamed" *)
Definition t_sheet1 : text := [83;104;101;101;116;49].
Definition t_sheet2 : text := [83;104;101;101;116;50].
(* SUM(Ghost!R[0]C[-3]:R[1]C[-3]) — the stored form of =SUM(Ghost!A1:A2) typed into D1 *)
Definition w_ghost : ast := ENamedFun None [115;117;109] [ERange (Some t_ghost) None pA1 pA2].
Definition env_w : penv := {| pe_sheets := [t_sheet1; t_sheet2]; pe_ctx_sheet := t_sheet1; pe_defnames := []; pe_tables := [] |}.
Definition nm_w : names :=
  {| fn_name := fun _ => [70]; fn_lookup := fun _ => None; bool_of_name := fun _ => None; fn_true := 0; fn_false := 1;
     nm_lower := fun t => t; nm_upper := fun t => t; err_tokens := fun k => [TError k] |}.

(* renaming Sheet2 (index 1) to "Renamed" used to rewrite the ghost range (F12, repaired by 059fa54): now
   the tree is left alone and its stored text still parses to the range on the nonexistent sheet *)
Example rename_ghost_range_regression :
  image m_stored nm_w env_w w_ghost = true /\
  rename_node 1 t_renamed w_ghost = w_ghost /\
  parse m_stored nm_w (env_renamed 1 t_renamed env_w) (print m_stored nm_w (rename_node 1 t_renamed w_ghost))
    = Some (w_ghost, []).
Proof. vm_compute. repeat split. Qed.

(* ---- move_sheet: references are by name, and a name denotes the same sheet after the move -------- *)
Lemma lookup_none {A} name (l : list (text * A)) : lookup name l = None <-> ~ In name (map fst l).
Proof.
  induction l as [|[x b] r IH]; cbn [lookup map fst In]; [tauto|].
  destruct (text_eqb x name) eqn:E.
  - apply text_eqb_eq in E. split; [discriminate|tauto].
  - rewrite IH. split; [|tauto]. intros H [->|H1]; [rewrite text_eqb_refl in E; discriminate|tauto].
Qed.

Lemma lookup_some {A} name (l : list (text * A)) a :
  NoDup (map fst l) -> lookup name l = Some a <-> In (name, a) l.
Proof.
  induction l as [|[x b] r IH]; cbn [lookup map fst In]; intro Hnd; [split; [discriminate|tauto]|].
  inversion Hnd as [|? ? Hnot Hnd']; subst. destruct (text_eqb x name) eqn:E.
  - apply text_eqb_eq in E. subst x. split; [intros [= ->]; left; reflexivity|].
    intros [[= ->]|Hin]; [reflexivity|]. destruct Hnot. exact (in_map fst _ _ Hin).
  - rewrite (IH Hnd'). split; [tauto|]. intros [[= -> ->]|Hin]; [rewrite text_eqb_refl in E; discriminate|exact Hin].
Qed.

Lemma lookup_perm {A} (l l' : list (text * A)) name :
  Permutation l l' -> NoDup (map fst l) -> lookup name l' = lookup name l.
Proof.
  intros HP Hnd. pose proof (Permutation_map fst HP) as HP1.
  pose proof (Permutation_NoDup HP1 Hnd) as Hnd'.
  destruct (lookup name l) eqn:E.
  - apply lookup_some in E; [|exact Hnd]. apply lookup_some; [exact Hnd'|]. exact (Permutation_in _ HP E).
  - apply lookup_none in E. apply lookup_none. intro Hin. exact (E (Permutation_in _ (Permutation_sym HP1) Hin)).
Qed.

Lemma nth_error_split_perm {A} (l : list A) i x :
  nth_error l i = Some x -> Permutation l (x :: remove_at i l).
Proof.
  revert l; induction i as [|i IH]; intros [|a l]; cbn [nth_error]; try discriminate.
  - intros [= ->]. reflexivity.
  - intro H. rewrite (IH _ H) at 1. apply perm_swap.
Qed.

Lemma insert_at_perm {A} (l : list A) j x : Permutation (x :: l) (insert_at j x l).
Proof. unfold insert_at. rewrite <- (firstn_skipn j l) at 1. apply Permutation_middle. Qed.

Theorem move_permutes {A} (i j : nat) (l l' : list A) : move_list i j l = Ok l' -> Permutation l l'.
Proof.
  unfold move_list. destruct (Nat.leb (length l) i); [discriminate|].
  destruct (Nat.leb (length l) j); [discriminate|].
  destruct (Nat.eqb i j); [intros [= <-]; reflexivity|].
  destruct (nth_error l i) as [x|] eqn:E; [|discriminate].
  intros [= <-]. rewrite <- insert_at_perm. apply nth_error_split_perm, E.
Qed.

Theorem move_resolves_same_sheet {A} (i j : nat) (l l' : list (text * A)) :
  move_list i j l = Ok l' -> NoDup (map fst l) -> forall name, lookup name l' = lookup name l.
Proof. intros H Hnd name. apply lookup_perm; [exact (move_permutes _ _ _ _ H)|exact Hnd]. Qed.

Theorem move_total {A} (i j : nat) (l : list A) :
  (i < length l)%nat -> (j < length l)%nat -> exists l', move_list i j l = Ok l' /\ length l' = length l.
Proof.
  intros Hi Hj.
  assert (exists l', move_list i j l = Ok l') as [l' E].
  { unfold move_list. destruct (Nat.leb_spec (length l) i); [lia|]. destruct (Nat.leb_spec (length l) j); [lia|].
    destruct (Nat.eqb i j); [eauto|].
    destruct (nth_error l i) eqn:E; [eauto|apply nth_error_None in E; lia]. }
  exists l'. split; [exact E|]. symmetry. apply Permutation_length, (move_permutes _ _ _ _ E).
Qed.

(* the moved sheet ends up at exactly the target position *)
Theorem move_lands_at {A} (i j : nat) (l l' : list A) x :
  move_list i j l = Ok l' -> nth_error l i = Some x -> nth_error l' j = Some x.
Proof.
  unfold move_list. destruct (Nat.leb_spec (length l) i); [discriminate|].
  destruct (Nat.leb_spec (length l) j); [discriminate|].
  destruct (Nat.eqb_spec i j) as [->|_]; intros Hm Hx; [injection Hm as <-; exact Hx|].
  rewrite Hx in Hm. injection Hm as <-. unfold insert_at.
  assert (Hlen : length (remove_at i l) = (length l - 1)%nat).
  { unfold remove_at. rewrite app_length, firstn_length, skipn_length. lia. }
  rewrite nth_error_app2; rewrite firstn_length, Nat.min_l by lia; [|lia].
  rewrite Nat.sub_diag. reflexivity.
Qed.

(* ---- [reindex] changes nothing the printer looks at ------------------------------------------------ *)
Lemma forallb_map_eq (P : ast -> bool) (f : ast -> ast) l :
  Forall (fun x => P (f x) = P x) l -> forallb P (map f l) = forallb P l.
Proof. induction 1 as [|x l Hx _ IH]; cbn [forallb map]; [reflexivity|]. rewrite Hx, IH. reflexivity. Qed.

Lemma kind_rename_node i n c : kind_of (rename_node i n c) = kind_of c. Proof. destruct c; reflexivity. Qed.

Section Reindex.
  Variable rho : Z -> Z.
  Notation R := (reindex rho).
  Lemma kind_reindex c : kind_of (R c) = kind_of c. Proof. destruct c; reflexivity. Qed.
  Lemma hr_cmp_r c : cmp_right_parens (R c) = cmp_right_parens c. Proof. destruct c; reflexivity. Qed.
  Lemma hr_concat_l c : concat_left_parens (R c) = concat_left_parens c. Proof. destruct c; reflexivity. Qed.
  Lemma hr_concat_r c : concat_right_parens (R c) = concat_right_parens c. Proof. destruct c; reflexivity. Qed.
  Lemma hr_sum_l c : sum_left_parens (R c) = sum_left_parens c. Proof. destruct c; reflexivity. Qed.
  Lemma hr_sum_r op c : sum_right_parens op (R c) = sum_right_parens op c. Proof. destruct c; reflexivity. Qed.
  Lemma hr_prod_l c : prod_left_parens (R c) = prod_left_parens c. Proof. destruct c; reflexivity. Qed.
  Lemma hr_prod_r c : prod_right_parens (R c) = prod_right_parens c. Proof. destruct c; reflexivity. Qed.
  Lemma hr_pow_l c : pow_left_parens (R c) = pow_left_parens c. Proof. destruct c; reflexivity. Qed.
  Lemma hr_pow_r c : pow_right_parens (R c) = pow_right_parens c. Proof. destruct c; reflexivity. Qed.
  Lemma hr_neg c : neg_parens (R c) = neg_parens c. Proof. destruct c; reflexivity. Qed.
  Lemma hr_pct c : pct_parens (R c) = pct_parens c. Proof. destruct c; reflexivity. Qed.
  Lemma hr_range_l c : range_left_parens (R c) = range_left_parens c. Proof. destruct c; reflexivity. Qed.
  Lemma hr_range_r x c : range_right_parens x (R c) = range_right_parens x c. Proof. destruct x; destruct c; reflexivity. Qed.
  Lemma hr_at c : at_parens (R c) = at_parens c. Proof. destruct c; reflexivity. Qed.
  Lemma hr_spill c : spill_parens (R c) = spill_parens c. Proof. destruct c; reflexivity. Qed.

  (* the printer never looks at the recorded sheet index *)
  Lemma print_reindex m nm e : print m nm (R e) = print m nm e.
  Proof.
    unfold print.
    induction e using ast_rect';
      cbn [reindex gprint stringify_policy pol_cmp_l pol_cmp_r pol_concat_l pol_concat_r pol_sum_l pol_sum_r
           pol_prod_l pol_prod_r pol_pow_l pol_pow_r pol_neg pol_pct pol_range_l pol_range_r pol_at pol_spill];
      rewrite ?hr_cmp_r, ?hr_concat_l, ?hr_concat_r, ?hr_sum_l, ?hr_sum_r, ?hr_prod_l, ?hr_prod_r, ?hr_pow_l,
        ?hr_pow_r, ?hr_neg, ?hr_pct, ?hr_range_l, ?hr_range_r, ?hr_at, ?hr_spill,
        ?IHe, ?IHe1, ?IHe2, ?map_map, ?(map_ext_Forall _ _ H); try reflexivity.
    (* ELambdaCall: a variable in function position is spelled in lower case *)
    destruct e; reflexivity.
  Qed.
End Reindex.

Lemma reindex_id e : reindex (fun k => k) e = e.
Proof.
  induction e using ast_rect'; cbn [reindex];
    rewrite ?IHe, ?IHe1, ?IHe2, ?(map_ext_Forall _ _ H), ?map_id; try reflexivity; destruct i; reflexivity.
Qed.

(* ---- the retargeted tree is again a tree the parser returns, in the new environment --------------- *)
Lemma opt_z_eqb_true a b : opt_z_eqb a b = true -> a = b.
Proof. destruct a, b; cbn [opt_z_eqb]; try discriminate; try reflexivity. intro H. apply Z.eqb_eq in H. congruence. Qed.
Lemma opt_z_eqb_refl a : opt_z_eqb a a = true.
Proof. destruct a; cbn [opt_z_eqb]; [apply Z.eqb_refl|reflexivity]. Qed.

(* Any change of the sheet list that satisfies the resolution conditions HA-HD below: the rename
   ([rho] the identity) and the duplication ([rho] = [dup_index]) are the two instances. *)
Section Retarget.
  Variables (m : pmode) (nm : names) (env env' : penv) (i : Z) (n : text) (rho : Z -> Z).

  Definition retarget (e : ast) : ast := reindex rho (rename_node i n e).

  Hypothesis HA : sheet_index env' (Some n) = Some (rho i).
  Hypothesis HB : forall name k, sheet_index env (Some name) = Some k -> k <> i ->
                                 sheet_index env' (Some name) = Some (rho k).
  Hypothesis HC : sheet_index env' None = reindex_field rho (sheet_index env None).
  Hypothesis HD : forall g, sheet_index env (Some g) = None -> g <> n -> sheet_index env' (Some g) = None.
  Hypothesis Hdn : forall name ci, sheet_index env None = Some ci ->
                                   get_defined_name nm env' name (rho ci) = get_defined_name nm env name ci.
  Hypothesis Htb : pe_tables env' = pe_tables env.

  (* the sheet field of a reference or range after the pass resolves, in the new workbook, to the
     renumbered index: the target by HA, another named sheet by HB, the context sheet by HC, a name
     that is no sheet by HD *)
  Lemma field_retarget s idx :
    opt_z_eqb idx (sheet_index env s) = true ->
    match idx with None => not_named n s | Some _ => true end = true ->
    opt_z_eqb (reindex_field rho idx)
              (sheet_index env' (match idx with Some k => rename_valid i n s k | None => s end)) = true.
  Proof.
    intros Hi Hn. apply opt_z_eqb_true in Hi. subst idx.
    destruct (sheet_index env s) as [k|] eqn:E; cbn [reindex_field].
    - replace (sheet_index env' (rename_valid i n s k)) with (Some (rho k)); [apply opt_z_eqb_refl|].
      symmetry. unfold rename_valid. destruct s as [name|]; cbn [is_some].
      + rewrite andb_true_r. destruct (Z.eqb_spec k i) as [->|Hk]; [exact HA|exact (HB _ _ E Hk)].
      + rewrite andb_false_r, HC, E. reflexivity.
    - destruct s as [g|]; [rewrite HD|rewrite HC, E]; try reflexivity; [exact E|].
      intros ->. cbn [not_named] in Hn. rewrite text_eqb_refl in Hn. discriminate.
  Qed.

  Lemma is_table_pres name : is_table nm env' name = is_table nm env name.
  Proof. unfold is_table. rewrite Htb. reflexivity. Qed.

  Lemma ident_free_pres name : ident_free nm env' name = ident_free nm env name.
  Proof.
    unfold ident_free. rewrite HC. destruct (sheet_index env None) as [ci|] eqn:E; [|reflexivity].
    cbn [reindex_field]. rewrite (Hdn name ci eq_refl), is_table_pres. reflexivity.
  Qed.

  Lemma var_ok_pres name : var_ok nm env' name = var_ok nm env name.
  Proof.
    unfold var_ok. rewrite HC. destruct (sheet_index env None) as [ci|] eqn:E; [|reflexivity].
    cbn [reindex_field]. rewrite (Hdn name ci eq_refl), is_table_pres. reflexivity.
  Qed.

  Lemma params_ok_pres ps : forallb (param_ok m nm env') ps = forallb (param_ok m nm env) ps.
  Proof.
    induction ps as [|p ps IH]; cbn [forallb]; [reflexivity|].
    unfold param_ok at 1 3. rewrite ident_free_pres, IH. reflexivity.
  Qed.

  Lemma args_shape_retarget args : args_shape_ok (map retarget args) = args_shape_ok args.
  Proof. destruct args as [|[] [|b r]]; reflexivity. Qed.

  Lemma is_lambdadef_retarget lam :
    match retarget lam with ELambdaDef _ _ => true | _ => false end
    = match lam with ELambdaDef _ _ => true | _ => false end.
  Proof. destruct lam; reflexivity. Qed.

  Lemma args_retarget args :
    Forall (fun e => forall arg, image_at m nm env arg e = true -> no_ghost_named n e = true ->
                                  image_at m nm env' arg (retarget e) = true) args ->
    forallb (image_at m nm env true) args = true -> forallb (no_ghost_named n) args = true ->
    forallb (image_at m nm env' true) (map retarget args) = true.
  Proof.
    induction 1 as [|a l Ha _ IH]; cbn [forallb map]; rewrite ?andb_true_iff; [reflexivity|].
    intros [? ?] [? ?]. split; [apply Ha|]; auto.
  Qed.

  Lemma image_retarget e :
    forall arg, image_at m nm env arg e = true -> no_ghost_named n e = true ->
                image_at m nm env' arg (retarget e) = true.
  Proof.
    induction e using ast_rect'; intros arg Hi Hn;
      cbn [retarget rename_node reindex image_at no_ghost_named] in *;
      rewrite ?map_map, ?args_shape_retarget; rewrite ?andb_true_iff in Hi; rewrite ?andb_true_iff;
      auto;
      try (apply andb_prop in Hn as [? ?]; destruct Hi; split; auto; fail).
    - (* ERef *) rewrite rename_wrong_ref_id. destruct Hi. split; [apply field_retarget|]; assumption.
    - (* ERange *) destruct Hi. split; [apply field_retarget|]; assumption.
    - (* EFun *) destruct Hi. split; [|apply args_retarget]; assumption.
    - (* ELambdaDef *) rewrite params_ok_pres. destruct Hi. split; auto.
    - (* ELambdaCall *)
      fold (retarget e). rewrite is_lambdadef_retarget.
      apply andb_prop in Hn as [? ?]. destruct Hi as [[[? ?] ?] ?]. repeat split; auto using args_retarget.
    - (* ENamedFun *) destruct Hi. split; [|apply args_retarget]; assumption.
    - (* EDefName *)
      rewrite HC. destruct (sheet_index env None) as [ci|] eqn:E; [|discriminate].
      cbn [reindex_field]. rewrite (Hdn _ ci eq_refl). exact Hi.
    - (* ETable *)
      rewrite HC. destruct (sheet_index env None) as [ci|] eqn:E; [|discriminate].
      cbn [reindex_field]. rewrite (Hdn _ ci eq_refl), is_table_pres. exact Hi.
    - (* EVar *) rewrite var_ok_pres. exact Hi.
    - (* EAt *) destruct Hi. split; auto.
    - (* ESpill *) destruct Hi. split; auto.
  Qed.

  Lemma no_bad_retarget xl e : no_bad xl (retarget e) = no_bad xl e.
  Proof.
    unfold no_bad, retarget.
    induction e using ast_rect'; try reflexivity; cbn [rename_node reindex no_bad_with];
      rewrite ?map_map, ?IHe, ?IHe1, ?IHe2, ?(forallb_map_eq _ _ _ H);
      (* what is left is the test at the root, which looks at the kinds of the operands only *)
      change (bad_child_with stringify_policy xl) with (bad_child xl);
      rewrite !bad_child_is_table; cbn [bad_child_table kind_of];
      rewrite ?kind_reindex, ?kind_rename_node; reflexivity.
  Qed.

  Lemma lower_stable_retarget e : lower_stable nm (retarget e) = lower_stable nm e.
  Proof.
    unfold retarget.
    induction e using ast_rect'; try reflexivity; cbn [rename_node reindex lower_stable];
      rewrite ?map_map, ?IHe, ?IHe1, ?IHe2, ?(forallb_map_eq _ _ _ H); reflexivity.
  Qed.

  (* the stored text of the renamed tree parses, in the new workbook, to the retargeted tree *)
  Theorem retarget_roundtrip e :
    image m nm env e = true -> no_bad (pm_xlsx m) e = true -> lower_stable nm e = true ->
    no_ghost_named n e = true ->
    image m nm env' (retarget e) = true /\
    parse m nm env' (print m nm (rename_node i n e)) = Some (retarget e, []).
  Proof.
    intros Hi Hb Hl Hn.
    assert (Hi' : image m nm env' (retarget e) = true) by (apply image_retarget; assumption).
    split; [exact Hi'|].
    rewrite <- (print_reindex rho m nm (rename_node i n e)).
    apply roundtrip_parse; [exact Hi'| |].
    - rewrite no_bad_retarget. exact Hb.
    - rewrite lower_stable_retarget. exact Hl.
  Qed.
End Retarget.

Section Shapes.
  Variables (i : Z) (n : text) (rho : Z -> Z).
  Notation T := (retarget i n rho).

  Lemma hp_never c : never (T c) = never c. Proof. reflexivity. Qed.
End Shapes.

(* ---- index_of on the renamed sheet list ------------------------------------------------------------ *)
Lemma text_eqb_neq a b : a <> b -> text_eqb a b = false.
Proof. intro H. destruct (text_eqb a b) eqn:E; [|reflexivity]. apply text_eqb_eq in E. contradiction. Qed.

Lemma index_of_some_nth name l : forall a j, index_of name l a = Some j ->
  exists t, j = a + Z.of_nat t /\ nth_error l t = Some name.
Proof.
  induction l as [|x r IH]; intros a j; cbn [index_of]; [discriminate|].
  destruct (text_eqb x name) eqn:E.
  - intro H. inversion H; subst. apply text_eqb_eq in E. subst. exists 0%nat. split; [lia|reflexivity].
  - intro H. destruct (IH _ _ H) as (t & Ht & Hn). exists (S t). split; [lia|exact Hn].
Qed.

Section ReplaceIdx.
  Variable n : text.

  (* another name keeps its index, unless it was the name of the replaced entry *)
  Lemma idx_replace_other l : forall k a name, name <> n -> index_of name l a <> Some (a + Z.of_nat k) ->
    index_of name (replace_nth k n l) a = index_of name l a.
  Proof.
    induction l as [|x r IH]; intros k a name Hn Hj; [destruct k; reflexivity|].
    destruct k as [|k]; cbn [index_of replace_nth] in *.
    - rewrite (text_eqb_neq n name) by congruence. destruct (text_eqb x name); [|reflexivity].
      destruct Hj. f_equal. lia.
    - destruct (text_eqb x name); [reflexivity|]. apply IH; [exact Hn|].
      intro E. apply Hj. rewrite E. f_equal. lia.
  Qed.

  Lemma idx_replace_self l : forall k a, (k < length l)%nat ->
    (forall t x, nth_error l t = Some x -> t <> k -> x <> n) ->
    index_of n (replace_nth k n l) a = Some (a + Z.of_nat k).
  Proof.
    induction l as [|x r IH]; intros k a Hk Hf; cbn [length] in Hk; [lia|].
    destruct k as [|k']; cbn [replace_nth index_of].
    - rewrite text_eqb_refl. f_equal. lia.
    - rewrite (text_eqb_neq x n) by (apply (Hf 0%nat); [reflexivity|lia]).
      rewrite IH; [f_equal; lia|lia|]. intros t y Ht Hne. apply (Hf (S t)); [exact Ht|lia].
  Qed.
End ReplaceIdx.

Lemma idx_nodup_nth l : forall k a, NoDup l -> (k < length l)%nat ->
  index_of (nth k l []) l a = Some (a + Z.of_nat k).
Proof.
  induction l as [|x r IH]; intros k a Hnd Hk; cbn [length] in Hk; [lia|].
  inversion Hnd as [|? ? Hnot Hnd']; subst.
  destruct k as [|k']; cbn [nth index_of].
  - rewrite text_eqb_refl. f_equal. lia.
  - rewrite text_eqb_neq.
    + rewrite IH; [f_equal; lia|exact Hnd'|lia].
    + intro Heq. apply Hnot. rewrite Heq. apply nth_In. lia.
Qed.

Lemma index_of_in name l : forall a, In name l -> index_of name l a <> None.
Proof.
  induction l as [|x r IH]; intros a Hin; [destruct Hin|]. cbn [index_of].
  destruct (text_eqb x name) eqn:E; [discriminate|].
  destruct Hin as [->|Hin]; [rewrite text_eqb_refl in E; discriminate|auto].
Qed.

(* ---- C17: the renamed formula, printed in the stored form, parses back to the renamed tree ---------- *)
Theorem rename_roundtrip nm env (k : nat) (n : text) (e : ast) :
  (k < length (pe_sheets env))%nat -> NoDup (pe_sheets env) -> In (pe_ctx_sheet env) (pe_sheets env) ->
  (* the new name is not the name of another sheet *)
  (forall t x, nth_error (pe_sheets env) t = Some x -> t <> k -> x <> n) ->
  image m_stored nm env e = true -> no_bad false e = true -> lower_stable nm e = true ->
  no_ghost_named n e = true ->
  let e' := rename_node (Z.of_nat k) n e in
  image m_stored nm (env_renamed k n env) e' = true /\
  parse m_stored nm (env_renamed k n env) (print m_stored nm e') = Some (e', []).
Proof.
  intros Hk Hnd Hctx Hfresh Hi Hb Hl Hn e'.
  assert (HA : sheet_index (env_renamed k n env) (Some n) = Some (Z.of_nat k))
    by exact (idx_replace_self n _ k 0 Hk Hfresh).
  assert (HB : forall name j, sheet_index env (Some name) = Some j -> j <> Z.of_nat k ->
                              sheet_index (env_renamed k n env) (Some name) = Some j).
  { intros name j Hj Hne. unfold sheet_index in *. cbn [env_renamed pe_sheets].
    destruct (index_of_some_nth _ _ _ _ Hj) as (t & Ht & Hnth).
    rewrite idx_replace_other; [exact Hj|apply (Hfresh t); [exact Hnth|lia]|rewrite Hj; intros [= ->]; lia]. }
  (* the rename is the retargeting that renumbers nothing *)
  rewrite <- (reindex_id e') at 1 3.
  apply (retarget_roundtrip m_stored nm env); try assumption; try reflexivity.
  - (* the context sheet is, by name, the renamed sheet (HA) or another one (HB) *)
    change (sheet_index env None) with (sheet_index env (Some (pe_ctx_sheet env))).
    unfold sheet_index at 1. cbn [pe_ctx_sheet env_renamed].
    destruct (text_eqb (pe_ctx_sheet env) (nth k (pe_sheets env) [])) eqn:E.
    + apply text_eqb_eq in E. rewrite E. unfold sheet_index. rewrite idx_nodup_nth by assumption. exact HA.
    + destruct (sheet_index env (Some (pe_ctx_sheet env))) as [j|] eqn:Ej; [|destruct (index_of_in _ _ 0 Hctx Ej)].
      apply HB; [exact Ej|]. intros ->.
      destruct (index_of_some_nth _ _ _ _ Ej) as (t & Ht & Hnth). assert (t = k) by lia. subst t.
      apply nth_error_nth with (d := []) in Hnth. rewrite Hnth, text_eqb_refl in E. discriminate.
  - intros g Hg Hne. unfold sheet_index in *. cbn [env_renamed pe_sheets].
    rewrite idx_replace_other; [exact Hg|exact Hne|rewrite Hg; discriminate].
Qed.

(* ... and what the new name is spelled as in that text is read back as the new name (C22, instantiated) *)
Theorem rename_name_survives (n : text) rest :
  is_valid_sheet_name n = true -> lex_sheet_prefix_x (quote_name_x n ++ 33 :: rest) = Some (n, rest).
Proof.
  intro H. apply sheet_roundtrip_x. intro; subst. discriminate.
Qed.

(* ---- duplicate_sheet: index_of on the list with the copy inserted ----------------------------------- *)
Lemma index_of_shift name l : forall a, index_of name l (a + 1) = option_map (fun z => z + 1) (index_of name l a).
Proof.
  induction l as [|x r IH]; intro a; cbn [index_of]; [reflexivity|].
  destruct (text_eqb x name); [reflexivity|]. apply IH.
Qed.

Section InsertIdx.
  Variable c : text.

  Lemma insert_at_cons (p : nat) (x : text) (r : list text) : insert_at (S p) c (x :: r) = x :: insert_at p c r.
  Proof. reflexivity. Qed.
  Lemma insert_at_0 (l : list text) : insert_at 0 c l = c :: l.
  Proof. reflexivity. Qed.
  Lemma insert_at_nil (p : nat) : insert_at p c [] = [c].
  Proof. unfold insert_at. rewrite firstn_nil, skipn_nil. reflexivity. Qed.

  (* another name keeps its index, or moves up by one behind the inserted entry *)
  Lemma idx_insert_other p : forall l a name, name <> c ->
    index_of name (insert_at p c l) a
    = option_map (fun j => if j <? a + Z.of_nat p then j else j + 1) (index_of name l a).
  Proof.
    induction p as [|p IH]; intros l a name Hne.
    - rewrite insert_at_0. cbn [index_of]. rewrite (text_eqb_neq c name), index_of_shift by congruence.
      destruct (index_of name l a) as [j|] eqn:H; [|reflexivity]. cbn [option_map].
      destruct (index_of_some_nth _ _ _ _ H) as (t & Ht & _).
      destruct (Z.ltb_spec j (a + Z.of_nat 0)); [lia|reflexivity].
    - destruct l as [|x r].
      + rewrite insert_at_nil. cbn [index_of]. rewrite (text_eqb_neq c name) by congruence. reflexivity.
      + rewrite insert_at_cons. cbn [index_of]. destruct (text_eqb x name).
        * cbn [option_map]. destruct (Z.ltb_spec a (a + Z.of_nat (S p))); [reflexivity|lia].
        * rewrite (IH r (a + 1) name Hne). replace (a + 1 + Z.of_nat p) with (a + Z.of_nat (S p)) by lia. reflexivity.
  Qed.

  Lemma idx_insert_self p : forall l a, ~ In c l -> (p <= length l)%nat ->
    index_of c (insert_at p c l) a = Some (a + Z.of_nat p).
  Proof.
    induction p as [|p IH]; intros l a Hnot Hp.
    - rewrite insert_at_0. cbn [index_of]. rewrite text_eqb_refl. f_equal. lia.
    - destruct l as [|x r]; [cbn [length] in Hp; lia|]. rewrite insert_at_cons. cbn [index_of].
      rewrite (text_eqb_neq x c) by (intro; subst; apply Hnot; left; reflexivity).
      rewrite IH; [f_equal; lia|intro; apply Hnot; right; assumption|cbn [length] in Hp; lia].
  Qed.
End InsertIdx.

(* the copy's formulas: the source's trees after the retargeting pass, printed in the stored form and
   parsed on the copy, are the source's trees with the references to the source (explicit or implicit)
   pointing to the copy and the sheets behind it renumbered; workbooks without defined names / tables
   (those are covered by the oracle only) *)
Theorem duplicate_roundtrip nm env (src : nat) (copy : text) (e : ast) :
  (src < length (pe_sheets env))%nat -> NoDup (pe_sheets env) ->
  pe_ctx_sheet env = nth src (pe_sheets env) [] ->
  ~ In copy (pe_sheets env) -> pe_defnames env = [] -> 
  image m_stored nm env e = true -> no_bad false e = true -> lower_stable nm e = true ->
  no_ghost_named copy e = true ->
  parse m_stored nm (env_dup src copy env) (print m_stored nm (dup_node (Z.of_nat src) copy e))
  = Some (reindex (dup_index (Z.of_nat src)) (dup_node (Z.of_nat src) copy e), []).
Proof.
  intros Hs Hnd Hctx Hfresh Hdn0 Hi Hb Hl Hn. unfold dup_node.
  eapply proj2, retarget_roundtrip with (env := env); try assumption; try reflexivity.
  - unfold sheet_index, env_dup. cbn [pe_sheets]. rewrite idx_insert_self; [|exact Hfresh|lia].
    unfold dup_index. rewrite Z.ltb_irrefl. f_equal. lia.
  - intros name k Hk Hne. unfold sheet_index in *. cbn [pe_sheets env_dup].
    assert (name <> copy).
    { intro; subst. destruct (index_of_some_nth _ _ _ _ Hk) as (t & _ & Hnth). apply Hfresh. eapply nth_error_In; exact Hnth. }
    rewrite (idx_insert_other copy (S src) _ 0 name H), Hk. cbn [option_map]. f_equal. unfold dup_index.
    destruct (Z.ltb_spec k (0 + Z.of_nat (S src))), (Z.ltb_spec k (Z.of_nat src)); lia.
  - unfold sheet_index. cbn [pe_sheets pe_ctx_sheet env_dup]. rewrite Hctx.
    rewrite idx_nodup_nth by assumption. rewrite idx_insert_self; [|exact Hfresh|lia].
    cbn [reindex_field]. unfold dup_index. rewrite Z.ltb_irrefl. f_equal. lia.
  - intros g Hgn Hne. unfold sheet_index in *. cbn [pe_sheets env_dup]. rewrite idx_insert_other, Hgn by exact Hne. reflexivity.
  - intros name ci _. unfold get_defined_name. cbn [pe_defnames env_dup]. rewrite Hdn0. reflexivity.
Qed.

(* ---- regression: the witness of the former finding F65 ------------------------------------------- *)
(* rename_sheet_by_index used to parse the stored (English) formulas with the user's locale: with a ';'
   locale a two-argument call was a parse error, its text was kept and the reference dangled.  Since
   9f60d5e the parse is in English whatever the user's locale: the reference gets the new name *)
Definition p00 : pref := {| p_row := 0; p_col := -1; p_abs_col := false; p_abs_row := false |}.
Definition t_sum : text := [115;117;109].
(* sum(Sheet1!R[0]C[-1],Sheet2!R[0]C[-1]) *)
Definition ts_two_args : list token :=
  [TIdent t_sum; TLParen; TReference (Some t_sheet1) p00; TComma; TReference (Some t_sheet2) p00; TRParen].

Example rename_stored_regression :
  rename_stored nm_w env_w 1 t_renamed ts_two_args =
    [TIdent t_sum; TLParen; TReference (Some t_sheet1) p00; TComma; TReference (Some t_renamed) p00; TRParen] /\
  parse m_stored nm_w (env_renamed 1 t_renamed env_w) (rename_stored nm_w env_w 1 t_renamed ts_two_args) =
    Some (ENamedFun None t_sum [ERef (Some t_sheet1) (Some 0) p00; ERef (Some t_renamed) (Some 1) p00], []).
Proof. vm_compute. repeat split. Qed.

(* non-vacuity of rename_roundtrip: SUM(Sheet2!R[0]C[-1],Ghost!R[0]C[-3]:R[1]C[-3])+R[0]C[-1]-Ghost!R[0]C[-1], renaming Sheet2 *)
Example rename_roundtrip_nonvacuous :
  let e := ESum SMinus (ESum SAdd (ENamedFun None t_sum [ERef (Some t_sheet2) (Some 1) p00; ERange (Some t_ghost) None pA1 pA2])
                             (ERef None (Some 0) p00))
                (ERef (Some t_ghost) None p00) in
  image m_stored nm_w env_w e = true /\ no_bad false e = true /\ lower_stable nm_w e = true /\
  no_ghost_named t_renamed e = true /\
  rename_node 1 t_renamed e <> e /\
  parse m_stored nm_w (env_renamed 1 t_renamed env_w) (print m_stored nm_w (rename_node 1 t_renamed e))
    = Some (rename_node 1 t_renamed e, []).
Proof. vm_compute. repeat split. discriminate. Qed.

(* non-vacuity of duplicate_roundtrip: the same formula on Sheet1, duplicated *)
Definition t_copy : text := [83;104;101;101;116;49;32;40;49;41].      (* "Sheet1 (1)" *)
Example duplicate_roundtrip_nonvacuous :
  let e := ESum SMinus (ESum SAdd (ENamedFun None t_sum [ERef (Some t_sheet1) (Some 0) p00; ERef (Some t_sheet2) (Some 1) p00])
                             (ERef None (Some 0) p00))
                (ERef (Some t_ghost) None p00) in
  image m_stored nm_w env_w e = true /\
  parse m_stored nm_w (env_dup 0 t_copy env_w) (print m_stored nm_w (dup_node 0 t_copy e))
    = Some (ESum SMinus (ESum SAdd (ENamedFun None t_sum [ERef (Some t_copy) (Some 1) p00; ERef (Some t_sheet2) (Some 2) p00])
                             (ERef None (Some 1) p00))
                (ERef (Some t_ghost) None p00), []).
Proof. vm_compute. repeat split. Qed.
