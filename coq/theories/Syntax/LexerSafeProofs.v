(* Syntax/LexerSafeProofs.v — index safety of the lexer cursor model: no reachable [Panic]
   and the cursor invariant, for every input text and every instantiation of the decision
   oracles (character classes, number parsing, reserved names, language data). *)
From IronCalc Require Import Base.Prelude Base.Dec Codec.Column Codec.RefA1 Codec.RefRC Syntax.LexerSafe.

(* [safe Q r]: the computation did not panic, and its result, if there is one, satisfies Q
   ([Err] is "out of loop fuel") *)
Definition safe {A} (Q : A -> Prop) (r : outcome A) : Prop :=
  match r with Ok a => Q a | Err => True | Panic => False end.

Lemma safe_bind {A B} (Q : A -> Prop) (R : B -> Prop) (o : outcome A) (f : A -> outcome B) :
  safe Q o -> (forall a, Q a -> safe R (f a)) -> safe R (obind o f).
Proof. destruct o; cbn [safe obind]; auto. Qed.

Lemma safe_weaken {A} (Q Q' : A -> Prop) (o : outcome A) : safe Q o -> (forall a, Q a -> Q' a) -> safe Q' o.
Proof. destruct o; cbn [safe]; auto. Qed.

Section Safe.
  Variable chars : list Z.
  Variables (alpha alnum wsp : Z -> bool).
  Variable decimal : Z.
  Variable errnames : list text.
  Variables (is_true is_false : text -> bool).
  Variable f64_ok : text -> bool.
  Variable i32_of : text -> option Z.
  Variable col_ok : text -> bool.
  Variable ref_a1 : text -> bool.
  Variable col_colon : text -> bool.
  Variables (valid_a1_ident valid_ident : text -> bool).
  Variable a1 : bool.
  (* language data: no error name is empty (`name.chars().count() - 1` is a usize subtraction) *)
  Hypothesis errnames_nonempty : Forall (fun n => n <> []) errnames.

  Notation L := (len chars).

  Lemma len_nonneg : 0 <= L.
  Proof. unfold len. lia. Qed.

  (* the cursor postcondition: in range, and either not before the start or exactly at len
     (every set_error moves the cursor to len) *)
  Definition post (p q : Z) : Prop := 0 <= q <= L + 1 /\ (p <= q \/ q = L).

  Definition okz (p : Z) (r : outcome Z) : Prop :=
    match r with Ok q => post p q | Err => True | Panic => False end.
  Definition okp {A} (p : Z) (r : outcome (A * Z)) : Prop :=
    match r with Ok (_, q) => post p q | Err => True | Panic => False end.

  Lemma post_refl p : 0 <= p <= L + 1 -> post p p.
  Proof. unfold post; lia. Qed.
  Lemma post_len p : post p L.
  Proof. pose proof len_nonneg. unfold post; lia. Qed.
  Lemma post_trans p q r : 0 <= p <= L + 1 -> post p q -> post q r -> post p r.
  Proof. unfold post; lia. Qed.
  Lemma post_weaken p p' q : p' <= p -> post p q -> post p' q.
  Proof. unfold post; lia. Qed.

  (* what the character loops guarantee, which is more than [post]: the cursor only moves forward,
     and not past len unless it started there *)
  Definition fwd (p q : Z) : Prop := p <= q /\ (q <= L \/ q = p).

  Lemma fwd_refl p : fwd p p.
  Proof. unfold fwd; lia. Qed.
  Lemma fwd_post p q : 0 <= p <= L + 1 -> fwd p q -> post p q.
  Proof. unfold fwd, post; lia. Qed.

  (* ---- the panic-capable primitives, inside their bounds ---- *)
  Lemma get_ok p : 0 <= p < L -> get chars p = Ok (nth (Z.to_nat p) chars 0).
  Proof.
    intros H. unfold get.
    destruct (Z.leb_spec 0 p); [|lia]. destruct (Z.ltb_spec p L); [reflexivity|lia].
  Qed.

  Lemma sub1_ok p : 1 <= p -> sub1 p = Ok (p - 1).
  Proof. intros H. unfold sub1. destruct (Z.leb_spec 1 p); [reflexivity|lia]. Qed.

  Lemma slice_ok a b : 0 <= a <= b -> b <= L -> slice chars a b = Ok (sub chars a b).
  Proof.
    intros H1 H2. unfold slice.
    destruct (Z.leb_spec 0 a); [|lia]. destruct (Z.leb_spec a b); [|lia]. destruct (Z.leb_spec b L); [reflexivity|lia].
  Qed.

  Lemma peek_ok p : 0 <= p -> safe (fun o => o <> None -> p < L) (peek chars p).
  Proof.
    intros H. unfold peek. destruct (Z.ltb_spec p L); [|cbn [safe]; congruence].
    rewrite get_ok by lia. cbn [obind safe]. auto.
  Qed.

  Lemma peek_is_ok p c : 0 <= p -> safe (fun b => b = true -> p < L) (peek_is chars p c).
  Proof.
    intros H. unfold peek_is. eapply safe_bind; [apply peek_ok, H|].
    intros [x|] Ho; cbn [safe]; [intros _; apply Ho|]; discriminate.
  Qed.

  (* ---- sequencing, with the continuation judged from the cursor it starts at ---- *)
  Lemma okz_bind_z p (o : outcome Z) (f : Z -> outcome Z) :
    0 <= p <= L + 1 -> okz p o -> (forall q, post p q -> okz q (f q)) -> okz p (obind o f).
  Proof.
    intros Hp Ho Hf. destruct o as [q| |]; cbn [obind okz] in *; auto.
    specialize (Hf q Ho). destruct (f q); cbn [okz] in *; auto.
    eapply post_trans; eassumption.
  Qed.

  Lemma okp_bind_z {B} p (o : outcome Z) (f : Z -> outcome (B * Z)) :
    0 <= p <= L + 1 -> okz p o -> (forall q, post p q -> okp q (f q)) -> okp p (obind o f).
  Proof.
    intros Hp Ho Hf. destruct o as [q| |]; cbn [obind okz] in *; auto.
    specialize (Hf q Ho). destruct (f q) as [[b r]| |]; cbn [okp] in *; auto.
    eapply post_trans; eassumption.
  Qed.

  Lemma okp_bind_p {A B} p (o : outcome (A * Z)) (f : A * Z -> outcome (B * Z)) :
    0 <= p <= L + 1 -> okp p o -> (forall a q, post p q -> okp q (f (a, q))) -> okp p (obind o f).
  Proof.
    intros Hp Ho Hf. destruct o as [[a q]| |]; cbn [obind okp] in *; auto.
    specialize (Hf a q Ho). destruct (f (a, q)) as [[b r]| |]; cbn [okp] in *; auto.
    eapply post_trans; eassumption.
  Qed.

  (* ---- the character loops ---- *)
  Lemma scan_ok pred n p : 0 <= p -> safe (fwd p) (scan chars pred n p).
  Proof.
    revert p; induction n as [|n IH]; intros p Hp; cbn [scan];
      (destruct (Z.ltb_spec p L); [|apply fwd_refl]); [exact I|].
    rewrite get_ok by lia. cbn [obind]. destruct (pred _); [|apply fwd_refl].
    apply (safe_weaken (fwd (p + 1))); [apply IH; lia|]. unfold fwd; lia.
  Qed.

  Lemma scan_post pred n p : 0 <= p <= L + 1 -> okz p (scan chars pred n p).
  Proof. intros H. apply (safe_weaken (fwd p)); [apply scan_ok; lia|]. intro q. apply fwd_post, H. Qed.

  Lemma consume_whitespace_post p : 0 <= p <= L + 1 -> okz p (consume_whitespace chars wsp p).
  Proof. apply scan_post. Qed.

  Lemma cstr_ok n p : 0 <= p -> safe (fun '(_, q) => fwd p q) (cstr chars n p).
  Proof.
    revert p; induction n as [|n IH]; intros p Hp; cbn [cstr];
      (destruct (Z.ltb_spec p L); [|apply fwd_refl]); [exact I|].
    rewrite get_ok by lia. cbn [obind]. destruct (negb _).
    - apply (safe_weaken (fun '(_, q) => fwd (p + 1) q)); [apply IH; lia|]. intros [b q]. cbv beta iota. unfold fwd; lia.
    - destruct (Z.ltb_spec (p + 1) L); [|cbn [safe]; unfold fwd; lia].
      rewrite get_ok by lia. cbn [obind]. destruct (_ =? 34); [|cbn [safe]; unfold fwd; lia].
      apply (safe_weaken (fun '(_, q) => fwd (p + 1 + 1) q)); [apply IH; lia|]. intros [b q]. cbv beta iota. unfold fwd; lia.
  Qed.

  (* csq: on success the cursor is strictly after the start (the closing quote was read) *)
  Lemma csq_ok n p :
    0 <= p -> safe (fun '(b, q) => fwd p q /\ (b = true -> p + 1 <= q <= L)) (csq chars n p).
  Proof.
    revert p; induction n as [|n IH]; intros p Hp; cbn [csq];
      (destruct (Z.ltb_spec p L); [|split; [apply fwd_refl|discriminate]]); [exact I|].
    rewrite get_ok by lia. cbn [obind]. destruct (_ =? 39).
    - destruct (Z.eqb_spec (p + 1) L); [cbn [safe]; unfold fwd; lia|].
      rewrite get_ok by lia. cbn [obind]. destruct (negb _); [cbn [safe]; unfold fwd; lia|].
      eapply safe_weaken; [apply (IH (p + 1 + 1)); lia|]. intros [b q]. cbv beta iota. unfold fwd; lia.
    - eapply safe_weaken; [apply (IH (p + 1)); lia|]. intros [b q]. cbv beta iota. unfold fwd; lia.
  Qed.

  Lemma ccr_ok e n q :
    0 <= q -> safe (fun o => match o with Some r => fwd q r | None => True end) (ccr chars e n q).
  Proof.
    revert q; induction n as [|n IH]; intros q Hq; cbn [ccr];
      (destruct (Z.ltb_spec q L); [|apply fwd_refl]); [exact I|].
    rewrite get_ok by lia. cbn [obind]. destruct (negb _); [|apply fwd_refl].
    destruct (_ =? 39).
    - destruct (Z.eqb_spec (q + 1) L); [exact I|].
      eapply safe_weaken; [apply (IH (q + 1 + 1)); lia|]. intros [r|]; unfold fwd; lia.
    - eapply safe_weaken; [apply (IH (q + 1)); lia|]. intros [r|]; unfold fwd; lia.
  Qed.

  Lemma opt_dollar_ok p : 0 <= p -> safe (fwd p) (opt_dollar chars p).
  Proof.
    intros H. unfold opt_dollar. destruct (Z.ltb_spec p L); [|apply fwd_refl].
    rewrite get_ok by lia. cbn [obind safe]. destruct (_ =? 36); unfold fwd; lia.
  Qed.

  (* ---- the consumers ---- *)
  Lemma consume_integer_post first p :
    0 <= p <= L + 1 -> okp p (consume_integer chars i32_of first p).
  Proof.
    intros H. unfold consume_integer. eapply safe_bind; [apply scan_ok; lia|].
    intros q Hq. apply fwd_post; assumption.
  Qed.

  Lemma consume_number_post first p :
    0 <= p <= L + 1 -> okp p (consume_number chars decimal f64_ok first p).
  Proof.
    intros H. unfold consume_number.
    eapply safe_bind; [apply scan_ok; lia|]. intros p1 [? ?]. cbv zeta.
    (* decimal part *)
    apply (safe_bind (fun '(_, p2) => fwd p1 p2)).
    { destruct (Z.ltb_spec p1 L); [|apply fwd_refl].
      rewrite get_ok by lia. cbn [obind]. destruct (_ =? decimal); [|apply fwd_refl].
      eapply safe_bind; [apply scan_ok; lia|]. intros p2. cbn [safe]. unfold fwd; lia. }
    intros [t2 p2] [? ?].
    (* exponent *)
    apply (safe_bind (fun '(_, p3) => fwd p2 p3)).
    { destruct (Z.ltb_spec (p2 + 1) L); [|apply fwd_refl].
      rewrite get_ok by lia. cbn [obind]. destruct (_ || _); [|apply fwd_refl].
      rewrite get_ok by lia. cbn [obind]. destruct (_ || _); [|apply fwd_refl].
      eapply safe_bind; [apply scan_ok; lia|]. intros p3. cbn [safe]. unfold fwd; lia. }
    intros [t3 p3] [? ?].
    destruct (f64_ok t3); [|apply post_len]. cbn [safe]. unfold post; lia.
  Qed.

  Lemma consume_identifier_post p :
    0 <= p <= L -> okp p (consume_identifier chars alnum p).
  Proof.
    intros H. unfold consume_identifier. eapply safe_bind; [apply scan_ok; lia|]. intros q [? ?].
    rewrite slice_ok by lia. cbn [obind safe]. unfold post; lia.
  Qed.

  Lemma consume_string_post p : 0 <= p <= L + 1 -> okp p (consume_string chars p).
  Proof.
    intros H. unfold consume_string. eapply safe_bind; [apply cstr_ok; lia|]. intros [b q] Hq.
    destruct b; [|apply post_len]. apply fwd_post; assumption.
  Qed.

  (* `self.chars[self.position..position - 1]` *)
  Lemma consume_single_quote_string_post p :
    0 <= p <= L + 1 -> okp p (consume_single_quote_string chars p).
  Proof.
    intros H. unfold consume_single_quote_string. eapply safe_bind; [apply csq_ok; lia|].
    intros [b q] [[? ?] Hb]. destruct b; [|apply post_len]. specialize (Hb eq_refl).
    rewrite sub1_ok by lia. cbn [obind]. rewrite slice_ok by lia. cbn [obind safe]. unfold post; lia.
  Qed.

  Lemma prefix_length a s : prefix_of a s = true -> (length a <= length s)%nat.
  Proof.
    revert s; induction a as [|x a IH]; intros [|y s]; cbn [prefix_of length]; intros H; try lia; try discriminate.
    apply andb_true_iff in H as [_ H]. specialize (IH _ H). lia.
  Qed.

  Lemma first_prefix_in names rest n :
    first_prefix names rest = Some n -> In n names /\ prefix_of n rest = true.
  Proof.
    induction names as [|m names IH]; cbn [first_prefix]; [discriminate|].
    destruct (prefix_of m rest) eqn:E.
    - intros [= ->]. split; [left; reflexivity|exact E].
    - intros H. destruct (IH H). split; [right|]; assumption.
  Qed.

  Lemma sub_length a b : 0 <= a <= b -> b <= L -> Z.of_nat (length (sub chars a b)) = b - a.
  Proof.
    intros H1 H2. unfold sub. rewrite firstn_length, skipn_length. unfold len in H2. lia.
  Qed.

  (* a name that is a prefix of chars[a..len] ends inside the text *)
  Lemma first_prefix_fits names a n :
    0 <= a <= L -> first_prefix names (sub chars a L) = Some n -> a + Z.of_nat (length n) <= L.
  Proof.
    intros H F. apply first_prefix_in in F as [_ F]. apply prefix_length in F.
    pose proof (sub_length a L). lia.
  Qed.

  (* consume_error: `chars[position - 1..len]` and `position += count - 1`; p >= 1 because the
     '#' has just been read *)
  Lemma consume_error_post p :
    1 <= p <= L -> okp p (consume_error chars errnames p).
  Proof.
    intros H. unfold consume_error. rewrite sub1_ok by lia. cbn [obind].
    rewrite slice_ok by lia. cbn [obind].
    destruct (first_prefix errnames _) as [n|] eqn:F; [|apply post_refl; lia].
    assert (1 <= Z.of_nat (length n)).
    { pose proof (proj1 (Forall_forall _ _) errnames_nonempty n (proj1 (first_prefix_in _ _ _ F))).
      destruct n; [congruence|cbn [length]; lia]. }
    rewrite sub1_ok by lia. cbn [obind okp].
    apply first_prefix_fits in F; [|lia]. unfold post; lia.
  Qed.

  Lemma consume_reference_a1_post p :
    0 <= p <= L + 1 -> okp p (consume_reference_a1 chars i32_of col_ok p).
  Proof.
    intros H. unfold consume_reference_a1.
    eapply safe_bind; [apply opt_dollar_ok; lia|]. intros p1 [? ?].
    eapply safe_bind; [apply scan_ok; lia|]. intros p2 [? ?].
    destruct (p2 =? p1); [apply post_len|].
    eapply safe_bind; [apply opt_dollar_ok; lia|]. intros p3 [? ?].
    eapply safe_bind; [apply scan_ok; lia|]. intros p4 [? ?].
    destruct (negb _); [apply post_len|]. destruct (last_row_ok _ _); [|apply post_len].
    cbn [safe]. unfold post; lia.
  Qed.

  Lemma consume_range_a1_post p :
    0 <= p <= L + 1 -> okp p (consume_range_a1 chars i32_of col_ok p).
  Proof.
    intros H. unfold consume_range_a1.
    eapply safe_bind; [apply consume_reference_a1_post, H|]. intros [ok q] Hq. destruct ok.
    - destruct Hq as [? ?].
      eapply safe_bind; [apply peek_is_ok; lia|]. intros colon Hlt.
      destruct colon; [specialize (Hlt eq_refl)|cbn [safe]; unfold post; lia].
      eapply safe_bind; [apply consume_reference_a1_post; lia|]. intros [ok2 q2] [? ?].
      destruct ok2; [|apply post_len]. cbn [safe]. unfold post; lia.
    - (* the row / column range path restarts at p: `self.position = position` *)
      clear q Hq.
      eapply safe_bind; [apply opt_dollar_ok; lia|]. intros p1 [? ?].
      eapply safe_bind; [apply scan_ok; lia|]. intros p2 [? ?].
      apply (safe_bind (fun colon => colon = true -> p2 < L)).
      { destruct (Z.ltb_spec p2 L); [|discriminate]. rewrite get_ok by lia. cbn [obind safe]. auto. }
      intros colon Hlt. destruct colon; [specialize (Hlt eq_refl)|apply post_len]. cbn [negb].
      eapply safe_bind; [apply opt_dollar_ok; lia|]. intros p4 [? ?].
      eapply safe_bind; [apply scan_ok; lia|]. intros p5 [? ?]. cbv zeta.
      (* every leaf of the validation is (0, len) or (2, p5) *)
      assert (P5 : post p p5) by (unfold post; lia).
      repeat match goal with |- safe _ (if ?c then _ else _) => destruct c end;
        try apply post_len; exact P5.
  Qed.

  Lemma expect_char_post c p : 0 <= p <= L + 1 -> okp p (expect_char chars c p).
  Proof.
    intros H. unfold expect_char. destruct (Z.leb_spec L p); [apply post_len|].
    rewrite get_ok by lia. cbn [obind]. destruct (_ =? c); [|apply post_len]. cbn [okp]. unfold post; lia.
  Qed.

  Lemma consume_table_specifier_post p :
    0 <= p <= L + 1 -> okp p (consume_table_specifier chars p).
  Proof.
    intros H. unfold consume_table_specifier.
    eapply safe_bind; [apply peek_is_ok; lia|]. intros hash Hlt.
    destruct hash; [specialize (Hlt eq_refl)|apply post_refl, H].
    rewrite slice_ok by lia. cbn [obind].
    destruct (first_prefix specifiers _) as [s|] eqn:F; [|apply post_refl, H].
    apply first_prefix_fits in F; [|lia]. cbn [safe]. unfold post; lia.
  Qed.

  (* consume_column_reference: no panic; the cursor may end at len + 1 (missing ']') *)
  Lemma consume_column_reference_post p :
    0 <= p <= L -> okp p (consume_column_reference chars wsp p).
  Proof.
    intros H. unfold consume_column_reference, consume_whitespace.
    eapply safe_bind; [apply scan_ok; lia|]. intros p1 [? ?].
    eapply safe_bind; [apply peek_is_ok; lia|]. intros br Hlt. cbv zeta.
    assert (br = true -> p1 < L) as Hlt' by exact Hlt. clear Hlt.
    eapply safe_bind; [apply ccr_ok; destruct br; lia|].
    intros [r|]; [intros [? ?]|intros _; cbn [safe]; unfold post; destruct br; lia].
    (* the slice chars[p2..r]: r <= len because p <= len *)
    rewrite slice_ok by (destruct br; lia). cbn [obind safe]. unfold post. destruct br; lia.
  Qed.
End Safe.

(* ---------------------------------------------------------------------------------------------- *)
(* the invariant `position <= len` is FALSE for the lexer as it stands: an unterminated '[' column
   reference leaves the cursor at len + 1 (structured_references.rs:81-84 `position += 1` after the
   loop ran off the end).  Witness "R[" in A1 mode, evaluated with the executable instantiation. *)
Definition w_tab : Exec.ctab := [(82, (3, [82])); (91, (0, [91]))].
Definition w_chars : text := [82; 91].                 (* R[ *)

Lemma cursor_beyond_len_witness :
  Exec.lex w_tab [] Exec.TRUE_ Exec.FALSE_ true 46 w_chars = Ok [(K_STRUCTURED, 3); (K_EOF, 3)].
Proof. vm_compute. reflexivity. Qed.

Definition cursor_within_text : Prop :=
  forall tab errs a1 dec chars toks,
    Exec.lex tab errs Exec.TRUE_ Exec.FALSE_ a1 dec chars = Ok toks ->
    Forall (fun t => snd t <= len chars) toks.

Lemma cursor_within_text_refuted : ~ cursor_within_text.
Proof.
  intros H. specialize (H w_tab [] true 46 w_chars _ cursor_beyond_len_witness).
  inversion H as [|t l Ht _]; subst. cbn in Ht. lia.
Qed.
