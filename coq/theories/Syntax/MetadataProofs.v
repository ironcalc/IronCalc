(* Syntax/MetadataProofs.v — theorems about Syntax/Metadata.v (C33): the link key maps and the
   corner arithmetic of conditional-format ranges are the cell relocation [Displace.cell_map];
   a conditional-format range becomes what a formula reference to the same range becomes
   exactly outside the defect class [cf_defect]; closed witnesses inside it.
   Each closure of the code is first read as the line arithmetic of Displace.v ([line_map],
   [shift_line], [single_move]); what follows is inherited from DisplaceProofs.v. *)
From IronCalc Require Import Base.Prelude Base.Dec Codec.Column Codec.ColumnProofs
  Codec.RefA1 Codec.RefA1Proofs Syntax.Displace Syntax.DisplaceProofs Syntax.Metadata.

Lemma links_insert_are_cell_map s at_ k p :
  0 < k ->
  link_insert_rows at_ k p = cell_map (DRow s at_ k) p /\
  link_insert_columns at_ k p = cell_map (DCol s at_ k) p.
Proof.
  intro H. destruct p as [r c]. cbn [link_insert_rows link_insert_columns cell_map].
  rewrite !line_map_ins by exact H. destruct (at_ <=? r), (at_ <=? c); split; reflexivity.
Qed.

(* delete_columns tests [c <= column + count - 1] where delete_rows tests [r < row + count] *)
Lemma links_delete_are_cell_map s at_ k p :
  0 <= k ->
  link_delete_rows at_ k p = cell_map (DRow s at_ (- k)) p /\
  link_delete_columns at_ k p = cell_map (DCol s at_ (- k)) p.
Proof.
  intro H. destruct p as [r c]. cbn [link_delete_rows link_delete_columns cell_map].
  rewrite !line_map_del by exact H. split.
  - destruct (r <? at_); [reflexivity|]. destruct (r <? at_ + k); reflexivity.
  - destruct (c <? at_); [reflexivity|].
    destruct (Z.leb_spec c (at_ + k - 1)), (Z.ltb_spec c (at_ + k)); (reflexivity || lia).
Qed.

(* the closures of the two move functions spell out the comparisons of [single_move], and drop
   the moved line itself *)
Lemma link_move_closures i d r c :
  link_move_row_closure i d (r, c) = (if r =? i then None else Some (single_move i d r, c)) /\
  link_move_column_closure i d (r, c) = (if c =? i then None else Some (r, single_move i d c)).
Proof.
  cbn [link_move_row_closure link_move_column_closure]. unfold single_move.
  split; (destruct (_ =? i); [reflexivity|]); (destruct (Z.ltb_spec 0 d); cbn [andb];
    [destruct (_ && _); [reflexivity|]; destruct (Z.ltb_spec d 0); [lia|reflexivity]
    |destruct (d <? 0); cbn [andb]; [rewrite andb_comm; destruct (_ && _)|]; reflexivity]).
Qed.

(* the whole of move_row_unchecked / move_column_unchecked on one key: the moved line is
   re-inserted at the target, and [retain] drops nothing the closure kept *)
Lemma link_moves_are_single_move i d r c :
  link_move_row i d (r, c) = Some (single_move i d r, c) /\
  link_move_column i d (r, c) = Some (r, single_move i d c).
Proof.
  destruct (link_move_closures i d r c) as [Hr Hc]. unfold link_move_row, link_move_column.
  rewrite Hr, Hc.
  pose proof (single_move_spec i d r). pose proof (single_move_spec i d c). split.
  - destruct (Z.eqb_spec r i); cbn [fst]; [do 2 f_equal; lia|].
    destruct (Z.eqb_spec (single_move i d r) (i + d)); [lia|reflexivity].
  - destruct (Z.eqb_spec c i); cbn [snd]; [do 2 f_equal; lia|].
    destruct (Z.eqb_spec (single_move i d c) (i + d)); [lia|reflexivity].
Qed.

(* all call sites at once *)
Theorem link_map_is_cell_map d p : link_map d p = cell_map d p.
Proof.
  destruct d as [s at_ delta|s at_ delta|s i delta|s i delta|]; cbn [link_map].
  1,2: destruct (Z.ltb_spec 0 delta) as [H|H]; [apply links_insert_are_cell_map; exact H|];
       rewrite <- (Z.opp_involutive delta) at 2; apply links_delete_are_cell_map; lia.
  3: destruct p; reflexivity.
  all: destruct p as [r c]; apply link_moves_are_single_move.
Qed.

(* the closure of a move drops exactly the moved line, and nothing it keeps lands on the
   target line: [retain] removes no displaced link *)
Lemma link_move_row_closure_spec row delta p :
  (fst p = row /\ link_move_row_closure row delta p = None) \/
  (fst p <> row /\ exists p', link_move_row_closure row delta p = Some p' /\
                              (delta <> 0 -> fst p' <> row + delta)).
Proof.
  destruct p as [r c]. rewrite (proj1 (link_move_closures row delta r c)). cbn [fst].
  destruct (Z.eqb_spec r row) as [E|E]; [left; auto|right]. split; [exact E|].
  eexists; split; [reflexivity|]. cbn [fst]. pose proof (single_move_spec row delta r). lia.
Qed.

Lemma link_move_column_closure_spec col delta p :
  (snd p = col /\ link_move_column_closure col delta p = None) \/
  (snd p <> col /\ exists p', link_move_column_closure col delta p = Some p' /\
                              (delta <> 0 -> snd p' <> col + delta)).
Proof.
  destruct p as [r c]. rewrite (proj2 (link_move_closures col delta r c)). cbn [snd].
  destruct (Z.eqb_spec c col) as [E|E]; [left; auto|right]. split; [exact E|].
  eexists; split; [reflexivity|]. cbn [snd]. pose proof (single_move_spec col delta c). lia.
Qed.

(* no two links collide: the key maps are injective where they are defined *)
Theorem link_map_injective d p1 p2 q :
  link_map d p1 = Some q -> link_map d p2 = Some q -> p1 = p2.
Proof. rewrite !link_map_is_cell_map. apply cell_map_injective. Qed.

(* the loops of move_rows_action / move_columns_action carry a link where the block move
   carries its cell *)
Lemma link_iter_last_first_is_iter rowwise i n d r c :
  link_iter_last_first rowwise i n d (Some (r, c)) =
  Some (if rowwise then (iter_last_first i n d r, c) else (r, iter_last_first i n d c)).
Proof.
  revert r c. induction n as [|n IH]; intros r c; destruct rowwise;
    cbn [link_iter_last_first iter_last_first obind_pos]; try reflexivity;
    [rewrite (proj1 (link_moves_are_single_move _ _ _ _))|rewrite (proj2 (link_moves_are_single_move _ _ _ _))];
    apply IH.
Qed.

Lemma link_iter_first_first_is_iter rowwise i n d r c :
  link_iter_first_first rowwise i n d (Some (r, c)) =
  Some (if rowwise then (iter_first_first i n d r, c) else (r, iter_first_first i n d c)).
Proof.
  revert i r c. induction n as [|n IH]; intros i r c; destruct rowwise;
    cbn [link_iter_first_first iter_first_first obind_pos]; try reflexivity;
    [rewrite (proj1 (link_moves_are_single_move _ _ _ _))|rewrite (proj2 (link_moves_are_single_move _ _ _ _))];
    apply IH.
Qed.

Theorem link_block_move_is_block rowwise i n d r c :
  link_block_move rowwise i n d (r, c) =
  Some (if rowwise then (block_move i (Z.of_nat n) d r, c) else (r, block_move i (Z.of_nat n) d c)).
Proof.
  rewrite <- !iterate_is_block. unfold link_block_move, iterate_moves.
  destruct (0 <? d); [apply link_iter_last_first_is_iter|apply link_iter_first_first_is_iter].
Qed.

(* the store *)
Lemma displace_links_in map l k' v :
  In (k', v) (displace_links map l) <-> exists k, In (k, v) l /\ map k = Some k'.
Proof.
  induction l as [|[k0 v0] l IH]; cbn [displace_links In].
  - split; [tauto | intros [k [[] _]]].
  - destruct (map k0) as [k0'|] eqn:E; cbn [In]; rewrite IH; split.
    + intros [[= <- <-]|(k & H1 & H2)]; eauto.
    + intros (k & [[= <- <-]|H] & H2); [left; congruence|eauto].
    + intros (k & H1 & H2). eauto.
    + intros (k & [[= <- <-]|H] & H2); [congruence|eauto].
Qed.

(* insert_rows / delete_rows / insert_columns / delete_columns on the store: a link is at k'
   afterwards iff it was at some k with cell_map d k = Some k' *)
Theorem displace_links_follow_cells d l k' v :
  In (k', v) (displace_links (link_map d) l) <-> exists k, In (k, v) l /\ cell_map d k = Some k'.
Proof.
  rewrite displace_links_in. split; intros (k & H1 & H2); exists k; split; trivial;
    [rewrite <- link_map_is_cell_map|rewrite link_map_is_cell_map]; exact H2.
Qed.

(* on every sheet the corner arithmetic is the arithmetic of references without exemption:
   displace_cf_row / displace_cf_col spell out the comparisons of [shift_line] and [single_move] *)
Theorem cf_corner_is_displace_pos d s p : cf_corner d s p = displace_pos d false false s p.
Proof.
  destruct p as [row col]. unfold cf_corner.
  destruct d as [s' at_ k|s' at_ k|s' i k|s' i k|];
    cbn [cf_row cf_col displace_pos negb fst snd]; rewrite ?andb_true_r, ?(Z.eqb_sym s s'); [..|reflexivity];
    (destruct (s' =? s); [|reflexivity]).
  1,2: unfold shift_line; destruct (k <? 0), (at_ <=? _); cbn [andb]; try reflexivity;
       destruct (_ <? at_ - k); reflexivity.
  all: unfold single_move; destruct (_ =? i); [reflexivity|]; destruct (Z.ltb_spec 0 k); cbn [andb];
       [destruct (_ && _); [reflexivity|]; destruct (Z.ltb_spec k 0); [lia|reflexivity]
       |destruct (k <? 0); cbn [andb]; [destruct (_ && _)|]; reflexivity].
Qed.

Theorem cf_corner_is_cell_map d s p :
  disp_sheet d = Some s -> cf_corner d s p = cell_map d p.
Proof. intro H. rewrite cf_corner_is_displace_pos. apply displace_pos_is_cell_map. exact H. Qed.

Theorem cf_corner_other_sheet d s s' p :
  disp_sheet d = Some s' -> s <> s' -> cf_corner d s p = Some p.
Proof. intros H Hne. rewrite cf_corner_is_displace_pos. exact (displace_pos_other_sheet d s s' _ _ p H Hne). Qed.

(* a surviving corner goes where its cell goes *)
Corollary cf_corner_survives d s p p' :
  disp_sheet d = Some s -> cf_corner d s p = Some p' -> cell_map d p = Some p'.
Proof. intros H1 H2. rewrite <- (cf_corner_is_cell_map d s p H1). exact H2. Qed.

(* the validated operations keep rows and columns at or above 1 *)
Definition disp_valid (d : disp) : Prop :=
  match d with
  | DRow _ at_ delta | DCol _ at_ delta => delta < 0 -> 1 <= at_
  | DRowMove _ i delta | DColMove _ i delta => 1 <= i /\ 1 <= i + delta
  | DNone => True
  end.

Theorem cf_rows_stay_positive d s p r c :
  disp_valid d -> 1 <= fst p -> 1 <= snd p -> cf_corner d s p = Some (r, c) -> 1 <= r /\ 1 <= c.
Proof.
  destruct p as [row col]. cbn [fst snd]. intros Hv Hr Hc. rewrite cf_corner_is_displace_pos.
  destruct d as [s' at_ k|s' at_ k|s' i k|s' i k|]; cbn [displace_pos negb disp_valid] in *;
    [..|intros [= <- <-]; lia];
    rewrite ?andb_true_r, ?shift_line_is_line_map; (destruct (s =? s'); [|intros [= <- <-]; lia]).
  3,4: intros [= <- <-]; pose proof (single_move_spec i k row); pose proof (single_move_spec i k col); lia.
  - generalize (line_map_spec row at_ k). destruct (line_map row at_ k); intros S [= <- <-]. lia.
  - generalize (line_map_spec col at_ k). destruct (line_map col at_ k); intros S [= <- <-]. lia.
Qed.

Lemma resolve_rel_corner1 s q p1 p2 : resolve q (corner1 (rel_range s q p1 p2)) = p1.
Proof.
  destruct p1 as [r c], q as [qr qc]. unfold resolve, corner1, rel_range. cbn. f_equal; lia.
Qed.
Lemma resolve_rel_corner2 s q p1 p2 : resolve q (corner2 (rel_range s q p1 p2)) = p2.
Proof.
  destruct p2 as [r c], q as [qr qc]. unfold resolve, corner2, rel_range. cbn. f_equal; lia.
Qed.

(* one corner outside the defect class: the conditional-format arithmetic yields a corner that
   prints, and the formula's text for the same cell is that print *)
Lemma corner_text d s q (a : aref) p :
  a_sheet a = s -> resolve q a = p -> a_abs_row a = false -> a_abs_col a = false ->
  cf_corner_deleted d s p = false -> cf_corner_off_grid d s p = false ->
  exists p' t, cf_corner d s p = Some p' /\ cf_print p' = Some t /\ displace_text d false false q a = t.
Proof.
  intros Hs Hr Har Hac. unfold displace_text, cf_corner_deleted, cf_corner_off_grid.
  rewrite Hs, Hr, <- cf_corner_is_displace_pos.
  destruct (cf_corner d s p) as [[r c]|]; [|discriminate]. intros _ [Hv Hlt]%orb_false_iff.
  apply negb_false_iff in Hv. exists (r, c). unfold cf_print, number_to_column. cbn [fst snd].
  rewrite Hlt, Hv, Har, Hac. eexists. repeat split.
Qed.

(* PROVED outside the defect class: the displaced conditional-format range is the text
   [stringify] prints for the reference [=...(p1:p2)] held by a formula in any cell q *)
Theorem cf_range_is_formula_range d s q orig p1 p2 :
  cf_defect d s p1 p2 = false ->
  cf_pair d s orig p1 p2 = displace_range_text d q (rel_range s q p1 p2).
Proof.
  unfold cf_defect. intros [[[D1 D2]%orb_false_iff O1]%orb_false_iff O2]%orb_false_iff.
  destruct (corner_text d s q (corner1 (rel_range s q p1 p2)) p1 eq_refl (resolve_rel_corner1 s q p1 p2)
              eq_refl eq_refl D1 O1) as (q1 & t1 & E1 & P1 & T1).
  destruct (corner_text d s q (corner2 (rel_range s q p1 p2)) p2 eq_refl (resolve_rel_corner2 s q p1 p2)
              eq_refl eq_refl D2 O2) as (q2 & t2 & E2 & P2 & T2).
  unfold displace_range_text, cf_pair.
  change (is_full_row (rel_range s q p1 p2)) with false. change (is_full_col (rel_range s q p1 p2)) with false.
  rewrite E1, E2, P1, P2, T1, T2. reflexivity.
Qed.

(* the same for a single-cell range against a single reference *)
Theorem cf_cell_is_formula_ref d s q orig p :
  cf_corner_deleted d s p = false -> cf_corner_off_grid d s p = false ->
  cf_cell d s orig p =
  displace_text d false false q
    {| a_sheet := s; a_row := fst p - fst q; a_col := snd p - snd q; a_abs_row := false; a_abs_col := false |}.
Proof.
  intros H1 H2. unfold cf_cell.
  edestruct corner_text as (p' & t & E & P & T); [..|rewrite E, P, T; reflexivity]; trivial.
  destruct p, q. unfold resolve. cbn. f_equal; lia.
Qed.

(* inside the class the range is returned unchanged *)
Theorem cf_range_unchanged_when_corner_deleted d s orig p1 p2 :
  cf_corner_deleted d s p1 = true \/ cf_corner_deleted d s p2 = true ->
  cf_pair d s orig p1 p2 = orig.
Proof.
  unfold cf_corner_deleted, cf_pair. intros [H|H].
  - destruct (cf_corner d s p1); [discriminate H | reflexivity].
  - destruct (cf_corner d s p1); [|reflexivity]. destruct (cf_corner d s p2); [discriminate H | reflexivity].
Qed.

(* closed witnesses *)
Definition t_A3A6 : text := [65; 51; 58; 65; 54].            (* A3:A6 *)
Definition t_A1XFD1 : text := [65; 49; 58; 88; 70; 68; 49].  (* A1:XFD1 *)
Definition t_REF_A4 : text := [35; 82; 69; 70; 33; 58; 65; 52].   (* #REF!:A4 *)
Definition t_A1_REF : text := [65; 49; 58; 35; 82; 69; 70; 33].   (* A1:#REF! *)

(* F25: rows 3-4 deleted under the range A3:A6. The stored text is returned as it is, a formula
   holding SUM(A3:A6) shows SUM(#REF!:A4), and the cell A6 now lives in A4 *)
Theorem cf_vs_formula_refuted_deleted_corner :
  let d := DRow 0 3 (-2) in
  cf_sqref d 0 t_A3A6 = t_A3A6 /\
  cf_part d 0 t_A3A6 = cf_pair d 0 t_A3A6 (3, 1) (6, 1) /\
  displace_range_text d (1, 2) (rel_range 0 (1, 2) (3, 1) (6, 1)) = t_REF_A4 /\
  cell_map d (3, 1) = None /\ cell_map d (6, 1) = Some (4, 1) /\
  cf_pair d 0 t_A3A6 (3, 1) (6, 1) <> displace_range_text d (1, 2) (rel_range 0 (1, 2) (3, 1) (6, 1)).
Proof. vm_compute. repeat split; try reflexivity. discriminate. Qed.

(* a corner pushed beyond the last column. One column inserted at B under A1:XFD1: the
   range stays A1:XFD1 (number_to_column fails), the formula shows A1:#REF! *)
Theorem cf_vs_formula_refuted_corner_off_grid :
  let d := DCol 0 2 1 in
  cf_sqref d 0 t_A1XFD1 = t_A1XFD1 /\
  cf_part d 0 t_A1XFD1 = cf_pair d 0 t_A1XFD1 (1, 1) (1, 16384) /\
  displace_range_text d (2, 1) (rel_range 0 (2, 1) (1, 1) (1, 16384)) = t_A1_REF /\
  cf_corner_deleted d 0 (1, 16384) = false /\
  cf_pair d 0 t_A1XFD1 (1, 1) (1, 16384) <> displace_range_text d (2, 1) (rel_range 0 (2, 1) (1, 1) (1, 16384)).
Proof. vm_compute. repeat split; try reflexivity. discriminate. Qed.

(* non-vacuity of the proved clause: an insertion inside A3:A6 *)
Example cf_range_grows :
  cf_defect (DRow 0 5 2) 0 (3, 1) (6, 1) = false /\
  cf_sqref (DRow 0 5 2) 0 t_A3A6 = [65; 51; 58; 65; 56] /\
  displace_range_text (DRow 0 5 2) (1, 2) (rel_range 0 (1, 2) (3, 1) (6, 1)) = [65; 51; 58; 65; 56].
Proof. vm_compute. repeat split; reflexivity. Qed.
