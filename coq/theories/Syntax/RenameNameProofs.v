(* Syntax/RenameNameProofs.v — proofs about Syntax/RenameName.v (C32). *)
From IronCalc Require Import Base.Prelude Codec.RefA1 Syntax.Token Syntax.Ast Syntax.Printer Syntax.Parser Syntax.Shape
  Syntax.FuelProofs Syntax.RenameName.

Section RenameProofs.
  Variable lower : text -> text.
  Variable name : text.
  Variable scope : option Z.
  Variable new_name : text.
  Notation rename := (rename lower name scope new_name).
  Notation hit := (hit lower name scope).

  (* nothing but the spelling of DefinedNameKind nodes changes *)
  Theorem rename_erase e : erase (rename e) = erase e.
  Proof.
    induction e using ast_rect'; cbn [RenameName.rename erase];
      rewrite ?map_map, ?(map_ext_Forall _ _ H); try congruence.
    destruct (hit n s); reflexivity.
  Qed.

  Definition ren_entry (x : text * option Z * text) : text * option Z * text :=
    let '(n, s, f) := x in if hit n s then (new_name, s, f) else (n, s, f).

  Lemma flat_map_defnames (args : list ast) :
    Forall (fun e => defnames (rename e) = map ren_entry (defnames e)) args ->
    flat_map defnames (map rename args) = map ren_entry (flat_map defnames args).
  Proof.
    induction 1 as [|a l Ha _ IH]; cbn [map flat_map]; [reflexivity|].
    rewrite Ha, IH, map_app. reflexivity.
  Qed.

  (* exactly the matching DefinedNameKind nodes are rewritten, in place *)
  Theorem rename_defnames e : defnames (rename e) = map ren_entry (defnames e).
  Proof.
    induction e using ast_rect'; cbn [RenameName.rename defnames map];
      rewrite ?map_app, ?(flat_map_defnames _ H); try congruence.
    unfold ren_entry. destruct (hit n s); reflexivity.
  Qed.

  Lemma map_id_flat {A} (P : A -> bool) (g : ast -> list A) (f : ast -> ast) (args : list ast) :
    Forall (fun e => forallb P (g e) = true -> f e = e) args ->
    forallb P (flat_map g args) = true -> map f args = args.
  Proof.
    induction 1 as [|a l Ha _ IH]; cbn [map flat_map]; [reflexivity|].
    rewrite forallb_app, andb_true_iff. intros [H1 H2]. rewrite (Ha H1), (IH H2). reflexivity.
  Qed.

  (* a tree without a matching node is returned as it is *)
  Theorem rename_no_hit e :
    forallb (fun x => negb (hit (fst (fst x)) (snd (fst x)))) (defnames e) = true -> rename e = e.
  Proof.
    induction e using ast_rect'; cbn [RenameName.rename defnames]; try reflexivity;
      rewrite ?forallb_app, ?andb_true_iff; intro H0;
      rewrite ?(map_id_flat _ _ _ _ H) by tauto; try (f_equal; tauto).
    cbn [forallb fst snd] in H0. rewrite andb_true_r, negb_true_iff in H0. rewrite H0. reflexivity.
  Qed.

  Theorem rename_kind e : kind_of (rename e) = kind_of e.
  Proof. destruct e; cbn [RenameName.rename kind_of]; try reflexivity. destruct (hit name0 scope0); reflexivity. Qed.
End RenameProofs.

(* ---- values: the table is re-keyed with the same function, so look-ups agree ------------------- *)
Lemma opt_z_eqb_eq a b : opt_z_eqb a b = true <-> a = b.
Proof.
  destruct a, b; cbn [opt_z_eqb]; rewrite ?Z.eqb_eq; split; intro H; try discriminate; congruence.
Qed.

Lemma nkey_eqb_eq a b : nkey_eqb a b = true <-> a = b.
Proof.
  destruct a as [sa na], b as [sb nb]. unfold nkey_eqb. cbn [fst snd].
  rewrite andb_true_iff, opt_z_eqb_eq, text_eqb_eq. split; [intros [-> ->]; reflexivity|intros [= -> ->]; auto].
Qed.
Lemma nkey_eqb_refl a : nkey_eqb a a = true.
Proof. apply nkey_eqb_eq. reflexivity. Qed.
Lemma nkey_eqb_neq a b : nkey_eqb a b = false <-> a <> b.
Proof. rewrite <- nkey_eqb_eq. destruct (nkey_eqb a b); split; congruence. Qed.

(* if the new key is not in the table (update_defined_name: "Defined name already exists"
   otherwise), looking up a renamed key in the renamed table is looking up the key in the table —
   for every key other than the new one *)
Theorem find_renamed {V} (old new : nkey) (tbl : list (nkey * V)) (k : nkey) :
  find_name new tbl = None -> k <> new ->
  find_name (ren_key old new k) (ren_table old new tbl) = find_name k tbl.
Proof.
  intros Hfresh Hk. induction tbl as [|[k' v] r IH]; cbn [ren_table map find_name fst snd]; [reflexivity|].
  cbn [find_name] in Hfresh. destruct (nkey_eqb new k') eqn:Enk; [discriminate|].
  fold (ren_table old new r). rewrite (IH Hfresh).
  unfold ren_key. destruct (nkey_eqb k old) eqn:E1, (nkey_eqb k' old) eqn:E2.
  - apply nkey_eqb_eq in E1, E2. subst. rewrite !nkey_eqb_refl. reflexivity.
  - apply nkey_eqb_eq in E1. subst k. rewrite Enk.
    destruct (nkey_eqb old k') eqn:E3; [|reflexivity]. apply nkey_eqb_eq in E3. subst k'. rewrite nkey_eqb_refl in E2. discriminate.
  - apply nkey_eqb_eq in E2. subst k'. rewrite E1.
    destruct (nkey_eqb k new) eqn:E3; [|reflexivity]. apply nkey_eqb_eq in E3. contradiction.
  - reflexivity.
Qed.

(* the capture the side condition excludes: a key equal to the NEW name that was absent before
   is found afterwards *)
Lemma capture_witness :
  let old : nkey := (None, [97]) in let new : nkey := (None, [98]) in
  let tbl : list (nkey * Z) := [(old, 1)] in
  find_name new tbl = None /\ find_name (ren_key old new new) (ren_table old new tbl) = Some 1.
Proof. vm_compute. split; reflexivity. Qed.

(* ---- renaming ANOTHER sheet: the stored formula of a name it does not mention ------------------ *)
(* [stored] is the text of a tree [e] in the configuration the loop parses and prints in (English
   since 9f60d5e); [e] is a tree that parser returns, inside the proved part of C09; the renamed
   sheet does not occur in it ([rename_sheet e = e]).  Then rename_sheet_by_index writes back
   exactly the text that was stored. *)
Theorem other_sheet_rename_keeps_formula m nm env rename_sheet e :
  image m nm env e = true -> no_bad (pm_xlsx m) e = true -> lower_stable nm e = true ->
  rename_sheet e = e ->
  name_formula_after_rename m nm env rename_sheet (print m nm e) = print m nm e.
Proof.
  intros Hi Hb Hl Hr. unfold name_formula_after_rename.
  rewrite (roundtrip_parse m nm env e Hi Hb Hl), Hr. reflexivity.
Qed.

(* ---- renaming a NAME: every stored formula is re-read, renamed and re-printed ---------------------
   Whatever the user's locale and language, the new stored text is the stored-form print of the
   renamed tree (C09 in the stored form). *)
Theorem name_rename_in_formula dot_active nm_active nm env lower name scope new_name e :
  image (m_rc_of true) nm env e = true -> no_bad false e = true -> lower_stable nm e = true ->
  formula_after_name_rename dot_active nm_active nm env lower name scope new_name (print (m_rc_of true) nm e)
  = print (m_rc_of true) nm (rename lower name scope new_name e).
Proof.
  intros Hi Hb Hl. unfold formula_after_name_rename. cbn [fst snd].
  rewrite (roundtrip_parse (m_rc_of true) nm env e Hi Hb Hl). reflexivity.
Qed.

(* ---- which scope the pass matches on: the OLD one ------------------------------------------------ *)
Theorem rename_leaf_scope lower name scope new_name n s f :
  (s = scope -> lower name = lower n -> rename lower name scope new_name (EDefName n s f) = EDefName new_name s f) /\
  (s <> scope -> rename lower name scope new_name (EDefName n s f) = EDefName n s f).
Proof.
  cbn [rename]. unfold hit. split.
  - intros -> ->. rewrite text_eqb_refl, (proj2 (opt_z_eqb_eq scope scope) eq_refl). reflexivity.
  - intro Hs. destruct (opt_z_eqb s scope) eqn:E; [apply opt_z_eqb_eq in E; contradiction|].
    rewrite andb_false_r. reflexivity.
Qed.

(* the new scope of the operation does not enter *)
Theorem update_ignores_new_scope nm env lower name scope new_name ns1 ns2 stored :
  update_name_in_formula nm env lower name scope new_name ns1 stored
  = update_name_in_formula nm env lower name scope new_name ns2 stored.
Proof. reflexivity. Qed.

Theorem update_name_in_formula_spec nm env lower name scope new_name new_scope e :
  image (m_rc_of true) nm env e = true -> no_bad false e = true -> lower_stable nm e = true ->
  update_name_in_formula nm env lower name scope new_name new_scope (print (m_rc_of true) nm e)
  = if text_eqb new_name name then print (m_rc_of true) nm e
    else print (m_rc_of true) nm (rename lower name scope new_name e).
Proof.
  intros Hi Hb Hl. unfold update_name_in_formula. destruct (text_eqb new_name name); [reflexivity|].
  apply name_rename_in_formula; assumption.
Qed.
