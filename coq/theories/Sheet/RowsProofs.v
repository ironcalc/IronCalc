(* Sheet/RowsProofs.v — every row operation changes exactly one (row, attribute) pair. *)
From IronCalc Require Import Base.Prelude Sheet.Rows.

(* both loops rewrite the first record of row [r] and nothing else *)
Lemma find_modify r k f fresh rs :
  (forall x, r_r (f x) = r_r x) -> r_r fresh = r ->
  find_row k (modify r f fresh rs) =
  if k =? r then Some (match find_row r rs with Some x => f x | None => fresh end) else find_row k rs.
Proof.
  intros Hf Hfr. induction rs as [|x t IH]; cbn [modify find_row].
  - rewrite Hfr, Z.eqb_sym. reflexivity.
  - destruct (Z.eqb_spec (r_r x) r) as [E|E]; cbn [find_row].
    + rewrite Hf, E, (Z.eqb_sym k). destruct (r =? k); reflexivity.
    + rewrite IH. destruct (Z.eqb_spec (r_r x) k) as [<-|_]; [|reflexivity].
      destruct (Z.eqb_spec (r_r x) r); [contradiction | reflexivity].
Qed.

Lemma find_present r k f rs :
  (forall x, r_r (f x) = r_r x) ->
  find_row k (modify_present r f rs) = if k =? r then option_map f (find_row r rs) else find_row k rs.
Proof.
  intros Hf. induction rs as [|x t IH]; cbn [modify_present find_row]; [destruct (k =? r); reflexivity|].
  destruct (Z.eqb_spec (r_r x) r) as [E|E]; cbn [find_row].
  - rewrite Hf, E, (Z.eqb_sym k). destruct (r =? k); reflexivity.
  - rewrite IH. destruct (Z.eqb_spec (r_r x) k) as [<-|_]; [|reflexivity].
    destruct (Z.eqb_spec (r_r x) r); [contradiction | reflexivity].
Qed.

Section Ops.
Variables down up : Z -> Z.
Hypothesis up_down : forall w, up (down w) = w.

Definition ragrees (rs : rows) (a : arows) : Prop :=
  forall r, rheight_at up rs r = ar_height a r /\ rhidden_at rs r = ar_hidden a r /\
            rstyle_at rs r = ar_style a r.

Lemma ragrees_abs_rof rs : ragrees rs (abs_rof (rheight_at up) rs).
Proof. intro r. repeat split; reflexivity. Qed.

(* the setters, with the gate of set_row_height's inner is_row_hidden call open *)
Ltac unfold_setters :=
  unfold set_row_height, set_row_hidden, set_row_style, delete_row_style, is_row_hidden.

(* ---- one step is the point update ----------------------------------------------------------------- *)
Theorem rsim_step rs a o :
  ragrees rs a -> ragrees (step_rop down rs o) (abs_rstep a o).
Proof.
  intros Hag k. unfold step_rop.
  destruct o as [r h|r b|r s|r]; cbn [apply_rop abs_rstep]; unfold_setters.
  (* a refused call changes neither side *)
  1, 2: destruct (is_valid_row r); [|exact (Hag k)].
  1: destruct (h <? 0); [exact (Hag k)|].
  (* an accepted one rewrites the first record of row r: any other row reads what it read, row r
     reads the new record, which differs from the old one (or the default) in one attribute *)
  all: cbn [negb andb obind ar_height ar_hidden ar_style]; unfold rheight_at, rhidden_at, rstyle_at, updr.
  all: rewrite ?find_modify, ?find_present by reflexivity.
  all: destruct (Z.eqb_spec k r) as [->|_]; [|exact (Hag k)].
  all: destruct (Hag r) as (G1 & G2 & G3); revert G1 G2 G3; unfold rheight_at, rhidden_at, rstyle_at.
  all: destruct (find_row r rs); cbn [option_map r_height r_hidden r_s r_custom_format].
  all: rewrite ?up_down; intros G1 G2 G3; repeat split; congruence.
Qed.

Theorem rows_history rs os :
  ragrees (run_rops down rs os) (fold_left abs_rstep os (abs_rof (rheight_at up) rs)).
Proof.
  pose proof (ragrees_abs_rof rs) as Hag. revert Hag. generalize (abs_rof (rheight_at up) rs).
  unfold run_rops. revert rs.
  induction os as [|o t IH]; intros rs a Hag; cbn [fold_left]; [exact Hag|].
  apply IH. apply rsim_step. exact Hag.
Qed.

(* ---- Model::get_row_style: Some as soon as a record exists ---------------------------------- *)
(* it changes without a style operation exactly when the step creates the record *)
Theorem get_row_style_frame rs o r' :
  (match o with SetRowStyle r _ | DelRowStyle r => r <> r' | _ => True end) ->
  get_row_style (step_rop down rs o) r' =
  if materialises rs o && (rop_row o =? r') then Some 0 else get_row_style rs r'.
Proof.
  intro Hns. unfold step_rop, get_row_style.
  destruct o as [r h|r b|r s|r]; cbn [apply_rop rop_row materialises]; unfold_setters.
  1, 2: destruct (is_valid_row r); [|reflexivity].
  1: destruct (h <? 0); [reflexivity|].
  all: cbn [negb andb obind]; rewrite ?find_modify, ?find_present by reflexivity; rewrite (Z.eqb_sym r').
  1, 2: destruct (Z.eqb_spec r r') as [<-|_]; [destruct (find_row r rs) | rewrite andb_false_r]; reflexivity.
  all: destruct (Z.eqb_spec r r'); [contradiction | reflexivity].
Qed.

(* ---- the property in its own words ------------------------------------------------------------ *)
Lemma ragrees_get rs a at' r : ragrees rs a -> rget up at' rs r = raget at' a r.
Proof. intro H. destruct (H r) as (G1 & G2 & G3). destruct at'; cbn [rget raget]; congruence. Qed.

Lemma abs_rstep_frame a o at' r' :
  (rop_row o, rop_attr o) <> (r', at') -> raget at' (abs_rstep a o) r' = raget at' a r'.
Proof.
  intro Hne.
  destruct o as [r h|r b|r s|r]; cbn [abs_rstep rop_row rop_attr] in *;
    try match goal with |- context [if ?c then _ else _] =>
          match c with context [is_valid_row] => destruct c end end; try reflexivity;
    destruct at'; cbn [raget ar_height ar_hidden ar_style]; try reflexivity;
    unfold updr; (destruct (Z.eqb_spec r' r) as [->|_]; [congruence | reflexivity]).
Qed.

Theorem rows_frame rs o r' at' :
  (rop_row o, rop_attr o) <> (r', at') ->
  rget up at' (step_rop down rs o) r' = rget up at' rs r'.
Proof.
  intro Hne. pose proof (rsim_step rs _ o (ragrees_abs_rof rs)) as Hag.
  rewrite (ragrees_get _ _ at' r' Hag), abs_rstep_frame by exact Hne.
  symmetry. apply ragrees_get. apply ragrees_abs_rof.
Qed.

(* what an accepted operation does to its own row: one attribute takes the value passed in, the
   other two stay (the row getters before and after, for all four setters at once) *)
Theorem rop_same_row rs o rs' :
  apply_rop down rs o = Ok rs' ->
  let r := rop_row o in
  rheight_at up rs' r = (match o with SetHeight _ h => h | _ => rheight_at up rs r end) /\
  rhidden_at rs' r = (match o with SetRowHidden _ b => b | _ => rhidden_at rs r end) /\
  rstyle_at rs' r = (match o with SetRowStyle _ s => (s, negb (s =? 0)) | DelRowStyle _ => (0, false)
                                | _ => rstyle_at rs r end).
Proof.
  destruct o as [r h|r b|r s|r]; cbn [apply_rop rop_row]; unfold_setters.
  1, 2: destruct (is_valid_row r); [|discriminate].
  1: destruct (h <? 0); [discriminate|].
  all: cbn [negb obind]; intro E; injection E as <-; unfold rheight_at, rhidden_at, rstyle_at.
  all: rewrite ?find_modify, ?find_present by reflexivity; rewrite Z.eqb_refl.
  all: destruct (find_row r rs); cbn [option_map r_height r_hidden r_s r_custom_format].
  all: rewrite ?up_down; repeat split; reflexivity.
Qed.

Theorem rows_readback rs o rs' :
  apply_rop down rs o = Ok rs' -> rget up (rop_attr o) rs' (rop_row o) = rop_val o.
Proof.
  intro E. destruct (rop_same_row rs o rs' E) as (H1 & H2 & H3).
  destruct o; cbn [rop_attr rop_row rop_val rget] in *; congruence.
Qed.

End Ops.

(* Model::get_row_style changes from None to Some(default) when a height is set *)
Lemma row_style_materialises_refuted :
  exists rs r h rs', set_row_height (fun z => z) rs r h = Ok rs' /\
    get_row_style rs r = None /\ get_row_style rs' r = Some 0.
Proof. exists [], 3, 50. eexists. repeat split; vm_compute; reflexivity. Qed.
