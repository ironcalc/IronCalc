(* Sheet/PersistProofs.v — proofs about Sheet/Persist.v (C26). *)
From IronCalc Require Import Base.Prelude Codec.RefA1 Syntax.Token Syntax.Ast Syntax.Printer Syntax.Parser Syntax.Shape
  Syntax.FuelProofs Sheet.Persist.

Section PersistProofs.
  Variable W : Type.
  Variable B : Type.
  Variable enc : W -> B.
  Variable dec : B -> option W.
  Variable PN : Type.
  Variable view : W -> wb_view.
  Variable parse_names : wb_view -> PN.
  Variable cf_eval : W -> W.
  Variable valid_locale valid_tz valid_lang : text -> bool.
  Variable lex_rc : text -> list token.
  Variable nm : names.
  (* the codec law: checked by the harness on every generated workbook (Workbook: PartialEq) *)
  Hypothesis bitcode_rt : forall w, dec (enc w) = Some w.
  (* evaluate_conditional_formatting writes computed values only; nothing to do without conditional formats *)
  Hypothesis cf_view : forall w, view (cf_eval w) = view w.
  Hypothesis cf_none : forall w, v_has_cf (view w) = false -> cf_eval w = w.

  Notation from_workbook := (from_workbook W PN view parse_names cf_eval valid_locale valid_tz valid_lang lex_rc nm).
  Notation from_bytes := (from_bytes W B dec PN view parse_names cf_eval valid_locale valid_tz valid_lang lex_rc nm).
  Notation to_bytes := (to_bytes W B enc PN).
  Notation loadable := (fun (m : model W PN) (lang : text) =>
    valid_locale (v_locale (view (m_wb m))) = true /\ valid_tz (v_tz (view (m_wb m))) = true /\ valid_lang lang = true).

  (* from_bytes (to_bytes m) is from_workbook of the very same workbook *)
  Lemma load_save_is_from_workbook m lang : from_bytes (to_bytes m) lang = from_workbook (m_wb m) lang.
  Proof. unfold Persist.from_bytes, Persist.to_bytes. rewrite bitcode_rt. reflexivity. Qed.

  (* it succeeds exactly when the three identifiers are valid *)
  Lemma load_ok_iff m lang :
    (exists m', from_bytes (to_bytes m) lang = Ok m') <-> loadable m lang.
  Proof.
    rewrite load_save_is_from_workbook. unfold Persist.from_workbook.
    destruct (valid_locale _) eqn:E1, (valid_tz _) eqn:E2, (valid_lang lang) eqn:E3; cbn [negb];
      split; intro H; try (destruct H as [m' H]; discriminate H);
      try (destruct H as (H1 & H2 & H3); discriminate); eauto.
  Qed.

  Lemma load_never_panics m lang : from_bytes (to_bytes m) lang <> Panic.
  Proof.
    rewrite load_save_is_from_workbook. unfold Persist.from_workbook.
    destruct (valid_locale _), (valid_tz _), (valid_lang lang); cbn [negb]; discriminate.
  Qed.

  (* the workbook of the loaded model is the stored one up to the values evaluate_conditional_formatting
     rewrote: everything [view] shows is identical; without conditional formats it is IDENTICAL.
     The language is the one asked for, the parsed structures are functions of the stored view. *)
  Theorem load_save_workbook m lang m' :
    from_bytes (to_bytes m) lang = Ok m' ->
    m_wb m' = cf_eval (m_wb m) /\ view (m_wb m') = view (m_wb m) /\
    (v_has_cf (view (m_wb m)) = false -> m_wb m' = m_wb m) /\ m_lang m' = lang /\
    m_parsed m' = parse_formulas lex_rc nm (view (m_wb m)) /\ m_names m' = parse_names (view (m_wb m)).
  Proof.
    rewrite load_save_is_from_workbook. unfold Persist.from_workbook.
    destruct (valid_locale _), (valid_tz _), (valid_lang lang); cbn [negb]; try discriminate.
    intro H. injection H as <-. cbn. repeat split; auto.
  Qed.

  Theorem load_save_exists m lang : loadable m lang ->
    exists m', from_bytes (to_bytes m) lang = Ok m' /\ view (m_wb m') = view (m_wb m).
  Proof.
    intro H. apply load_ok_iff in H as [m' H]. exists m'. split; [exact H|].
    apply load_save_workbook in H. tauto.
  Qed.

  (* ---- formulas: C09 in the stored form ---------------------------------------------------- *)
  Theorem stored_formula_reparses v sheet t e :
    stored_ok lex_rc nm v sheet t e -> parse_stored lex_rc nm v sheet t = e.
  Proof.
    intros (Himg & Hbad & Hlow & Hglue & Hlex). unfold parse_stored. rewrite Hlex.
    change true with (pm_rc m_rc1) at 1.
    rewrite (roundtrip_parse_glued m_rc1 nm (env_of v sheet) e Himg Hbad Hlow Hglue). reflexivity.
  Qed.

  Lemma stored_row_reparses v sheet ts ps :
    Forall2 (stored_ok lex_rc nm v sheet) ts ps -> map (parse_stored lex_rc nm v sheet) ts = ps.
  Proof.
    induction 1 as [|t e ts ps H _ IH]; cbn [map]; [reflexivity|].
    rewrite (stored_formula_reparses _ _ _ _ H), IH. reflexivity.
  Qed.

  Lemma sheets_reparse v (l : list (text * list text)) (ps : list (list ast)) :
    Forall2 (fun sf p => Forall2 (stored_ok lex_rc nm v (fst sf)) (snd sf) p) l ps ->
    map (fun sf => map (parse_stored lex_rc nm v (fst sf)) (snd sf)) l = ps.
  Proof.
    induction 1 as [|sf p l ps H _ IH]; cbn [map]; [reflexivity|].
    rewrite (stored_row_reparses _ _ _ _ H), IH. reflexivity.
  Qed.

  Lemma consistent_parse_formulas (m : model W PN) :
    consistent W PN view lex_rc nm m -> parse_formulas lex_rc nm (view (m_wb m)) = m_parsed m.
  Proof. intro H. apply sheets_reparse. exact H. Qed.

  Theorem load_save_formulas m lang m' :
    consistent W PN view lex_rc nm m -> from_bytes (to_bytes m) lang = Ok m' -> m_parsed m' = m_parsed m.
  Proof.
    intros Hc H. apply load_save_workbook in H as (_ & _ & _ & _ & H & _). rewrite H.
    apply consistent_parse_formulas. exact Hc.
  Qed.

  (* a second save/load changes nothing any more in what is stored and parsed (no consistency
     premise); the whole model is the same if evaluate_conditional_formatting has nothing left to
     rewrite in the loaded workbook *)
  Theorem load_save_idempotent m lang m' m'' :
    from_bytes (to_bytes m) lang = Ok m' -> from_bytes (to_bytes m') lang = Ok m'' ->
    view (m_wb m'') = view (m_wb m') /\ m_parsed m'' = m_parsed m' /\ m_names m'' = m_names m' /\ m_lang m'' = m_lang m' /\
    (cf_eval (m_wb m') = m_wb m' -> m'' = m').
  Proof.
    intros H1 H2. apply load_save_workbook in H1 as (Hw & Hv & _ & Hl & Hp & Hn).
    apply load_save_workbook in H2 as (Hw2 & Hv2 & _ & Hl2 & Hp2 & Hn2).
    rewrite Hv in Hp2, Hn2.
    repeat split; try congruence.
    intro Hfix. destruct m' as [w' p' n' l'], m'' as [w'' p'' n'' l'']. cbn in *. subst. rewrite Hfix. reflexivity.
  Qed.
End PersistProofs.

(* ---- number literals ------------------------------------------------------------------------ *)
Lemma store_int_short n : n < 10 ^ 15 -> store_int n = n.
Proof. intro H. unfold store_int. apply Z.ltb_lt in H. rewrite H. reflexivity. Qed.

Lemma store_int_tens k : store_int (10 * k) = 10 * k.
Proof.
  unfold store_int. destruct (10 * k <? 10 ^ 15); [reflexivity|].
  replace (10 * k / 10) with k by (symmetry; rewrite Z.mul_comm; apply Z.div_mul; lia).
  replace (10 * k mod 10) with 0 by (symmetry; rewrite Z.mul_comm; apply Z.mod_mul; lia).
  reflexivity.
Qed.

Lemma store_int_idempotent n : store_int (store_int n) = store_int n.
Proof.
  assert (H : store_int n = n \/ exists k, store_int n = 10 * k).
  { unfold store_int. destruct (n <? 10 ^ 15); [left; reflexivity | right; eexists; reflexivity]. }
  destruct H as [H | [k H]]; rewrite H; [exact H | apply store_int_tens].
Qed.

Lemma store_int_lossy : 0 <= 1000000000000001 < 2 ^ 53 /\ store_int 1000000000000001 = 1000000000000000.
Proof. vm_compute. repeat split; discriminate. Qed.

Lemma store_int_refuted : exists n, 0 <= n < 2 ^ 53 /\ store_int n <> n.
Proof.
  exists 1000000000000001. destruct store_int_lossy as (Hr & ->). split; [exact Hr | discriminate].
Qed.

(* ---- a concrete instance (non-vacuity of the hypotheses) -------------------------------------- *)
Module Example.
  Definition nm0 : names :=
    {| fn_name := fun _ => [70]; fn_lookup := fun _ => None; bool_of_name := fun _ => None; fn_true := 0; fn_false := 1;
       nm_lower := fun t => t; nm_upper := fun t => t; err_tokens := fun k => [TError k] |}.
  Definition r0 := ERef None (Some 0) {| p_row := 0; p_col := 0; p_abs_col := false; p_abs_row := false |}.
  (* the workbook is its own view, the codec is the identity *)
  Definition t1 : text := [49; 43; 50].                                   (* "1+2" *)
  Definition t2 : text := [45; 82; 91; 48; 93; 67; 91; 48; 93; 37].       (* "-R[0]C[0]%" *)
  Definition e1 := ESum SAdd (ENum [49]) (ENum [50]).
  Definition e2 := EPct (ENeg r0).
  Definition lex0 (t : text) : list token :=
    if text_eqb t t1 then print m_rc1 nm0 e1 else if text_eqb t t2 then print m_rc1 nm0 e2 else [TIllegal].
  Definition w0 : wb_view :=
    {| v_sheets := [([83], [t1; t2])]; v_defnames := []; v_tables := []; v_locale := [101; 110]; v_tz := [85; 84; 67]; v_has_cf := false |}.
  Definition m0 : model wb_view unit := {| m_wb := w0; m_parsed := [[e1; e2]]; m_names := tt; m_lang := [101; 110] |}.
  Definition yes (_ : text) := true.

  Lemma m0_consistent : consistent wb_view unit (fun w => w) lex0 nm0 m0.
  Proof.
    unfold consistent. cbn. repeat constructor; vm_compute; reflexivity.
  Qed.
  Lemma m0_loads :
    from_bytes wb_view wb_view Some unit (fun w => w) (fun _ => tt) (fun w => w) yes yes yes lex0 nm0
      (to_bytes wb_view wb_view (fun w => w) unit m0) [101; 110] = Ok m0.
  Proof. vm_compute. reflexivity. Qed.
End Example.
