(* Sheet/ColsProofs.v — the column-descriptor surgery keeps layouts well formed and changes
   exactly one (column, attribute) pair.  (The three situations in which the code used to break
   this — F23a/b/c — were repaired in /repo by acf9a86, ae7cffd, 973383c; the model follows the
   repaired code and the theorems are at full strength.) *)
From IronCalc Require Import Base.Prelude Sheet.Cols.

(* decides the comparisons of the goal one at a time; a case the context excludes goes at once,
   so the number of cases stays that of the orderings that are possible *)
Ltac zcases := repeat (match goal with
  | |- context [?a <=? ?b] => destruct (Z.leb_spec a b)
  | |- context [?a <? ?b] => destruct (Z.ltb_spec a b)
  | |- context [?a =? ?b] => destruct (Z.eqb_spec a b)
  end; try lia; cbn [andb negb orb]).

Lemma valid_iff j : is_valid_column_number j = true <-> 1 <= j <= LAST_COLUMN.
Proof.
  unfold is_valid_column_number. rewrite andb_true_iff, Z.leb_le, Z.leb_le. reflexivity.
Qed.

Lemma covers_iff c j : covers c j = true <-> c_min c <= j <= c_max c.
Proof. unfold covers. rewrite andb_true_iff, Z.leb_le, Z.leb_le. reflexivity. Qed.

Lemma covers_false_iff c j : covers c j = false <-> (j < c_min c \/ c_max c < j).
Proof. unfold covers. rewrite andb_false_iff, Z.leb_gt, Z.leb_gt. reflexivity. Qed.

(* what the getters read of a descriptor *)
Definition view (c : col) : Z * bool * bool * option Z :=
  (c_width c, c_custom c, c_hidden c, c_style c).
Definition view_at (cs : cols) (j : Z) : option (Z * bool * bool * option Z) :=
  option_map view (find_col j cs).

Lemma view_at_cons c l j :
  view_at (c :: l) j = if covers c j then Some (view c) else view_at l j.
Proof. unfold view_at. cbn [find_col]. destruct (covers c j); reflexivity. Qed.

(* the descriptor at which the surgery loops stop (they break at the first min > column) *)
Fixpoint reached (j : Z) (cs : cols) : option col :=
  match cs with
  | [] => None
  | c :: r => if covers c j then Some c else if j <? c_min c then None else reached j r
  end.

Lemma find_none_below lo cs j : wf_from lo cs -> j <= lo -> find_col j cs = None.
Proof.
  revert lo; induction cs as [|c r IH]; intros lo Hwf Hj; cbn [find_col]; [reflexivity|].
  cbn [wf_from] in Hwf. destruct Hwf as (H1 & H2 & H3 & H4).
  assert (covers c j = false) as -> by (apply covers_false_iff; lia).
  apply (IH (c_max c)); [exact H4 | lia].
Qed.

Lemma reached_find_wf lo cs j : wf_from lo cs -> reached j cs = find_col j cs.
Proof.
  revert lo; induction cs as [|c r IH]; intros lo Hwf; cbn [reached find_col]; [reflexivity|].
  cbn [wf_from] in Hwf. destruct Hwf as (H1 & H2 & H3 & H4).
  destruct (covers c j) eqn:Ec; [reflexivity|].
  destruct (j <? c_min c) eqn:El.
  - apply Z.ltb_lt in El. symmetry. apply (find_none_below (c_max c)); [exact H4 | lia].
  - apply (IH (c_max c)). exact H4.
Qed.

Lemma reached_find j cs c : reached j cs = Some c -> find_col j cs = Some c.
Proof.
  induction cs as [|d r IH]; cbn [reached find_col]; [discriminate|].
  destruct (covers d j); [exact (fun H => H)|].
  destruct (j <? c_min d); [discriminate | exact IH].
Qed.

(* what [place] and [unstyle] put where the descriptor [c] containing column j was: the part of
   [c] left of j, [x] for j itself (or nothing), the part right of j; the outer parts only when
   they are not empty *)
Definition split (j : Z) (c : col) (keep : bool) (x : col) (r : cols) : cols :=
  (if j =? c_min c then [] else [mkCol (c_min c) (j - 1) (c_width c) (c_custom c) (c_hidden c) (c_style c)]) ++
  (if keep then [x] else []) ++
  (if j =? c_max c then [] else [mkCol (j + 1) (c_max c) (c_width c) (c_custom c) (c_hidden c) (c_style c)]) ++ r.

Lemma place_covers j nc c r :
  covers c j = true ->
  place j nc (c :: r) = split j c true (mkCol j j (c_width nc) (c_custom nc) (c_hidden nc) (c_style nc)) r.
Proof.
  intro Ec. cbn [place]. rewrite Ec. destruct ((c_min c =? j) && (c_max c =? j)) eqn:Ee; [|reflexivity].
  apply andb_true_iff in Ee as (E1 & E2). apply Z.eqb_eq in E1, E2.
  unfold split. rewrite E1, E2, Z.eqb_refl. reflexivity.
Qed.

Lemma unstyle_covers j c r :
  covers c j = true ->
  unstyle j (c :: r) =
  split j c (c_custom c || c_hidden c) (mkCol j j (c_width c) (c_custom c) (c_hidden c) None) r.
Proof. intro Ec. cbn [unstyle]. rewrite Ec. reflexivity. Qed.

Section Split.
Variables (j : Z) (c x : col) (keep : bool) (r : cols).
Hypothesis Hc : c_min c <= j <= c_max c.
Hypothesis Hmin : c_min x = j.
Hypothesis Hmax : c_max x = j.

(* the other columns of [c] read what they read in [c] *)
Lemma split_other k : k <> j -> view_at (split j c keep x r) k = view_at (c :: r) k.
Proof.
  intro Hne. unfold split.
  destruct (Z.eqb_spec j (c_min c)), (Z.eqb_spec j (c_max c)), keep; cbn [app];
    rewrite !view_at_cons; unfold covers; cbn [c_min c_max]; zcases; reflexivity.
Qed.

Lemma split_same : find_col j (split j c keep x r) = if keep then Some x else find_col j r.
Proof.
  unfold split.
  destruct (Z.eqb_spec j (c_min c)), (Z.eqb_spec j (c_max c)), keep; cbn [app find_col];
    unfold covers; cbn [c_min c_max]; zcases; reflexivity.
Qed.

Lemma split_wf lo : wf_from lo (c :: r) -> wf_from lo (split j c keep x r).
Proof.
  cbn [wf_from]. intros (H1 & H2 & H3 & H4).
  assert (Hr : forall lo', lo' <= c_max c -> wf_from lo' r).
  { intros lo' Hle. destruct r as [|d r']; [exact I|]. cbn [wf_from] in *.
    destruct H4 as (G1 & G2). split; [lia | exact G2]. }
  unfold split.
  destruct (Z.eqb_spec j (c_min c)), (Z.eqb_spec j (c_max c)), keep;
    cbn [app wf_from c_min c_max]; repeat split; try lia; apply Hr; lia.
Qed.
End Split.

(* [place]: other columns; the column itself reads exactly what was passed in; well-formedness *)
Lemma view_at_place_other j k nc cs :
  k <> j -> c_min nc = j -> c_max nc = j -> view_at (place j nc cs) k = view_at cs k.
Proof.
  intros Hne Hmin Hmax.
  assert (Hnc : forall l, view_at (nc :: l) k = view_at l k).
  { intro l. rewrite view_at_cons, (proj2 (covers_false_iff nc k)) by lia. reflexivity. }
  induction cs as [|c r IH]; [apply Hnc|].
  destruct (covers c j) eqn:Ec.
  - rewrite place_covers by exact Ec.
    apply split_other; [apply covers_iff; exact Ec | reflexivity | reflexivity | exact Hne].
  - cbn [place]. rewrite Ec. destruct (j <? c_min c); [apply Hnc|].
    rewrite !view_at_cons, IH. reflexivity.
Qed.

Lemma view_at_place_same j nc cs :
  c_min nc = j -> c_max nc = j -> view_at (place j nc cs) j = Some (view nc).
Proof.
  intros Hmin Hmax.
  assert (Hnc : forall l, view_at (nc :: l) j = Some (view nc)).
  { intro l. rewrite view_at_cons, (proj2 (covers_iff nc j)) by lia. reflexivity. }
  induction cs as [|c r IH]; [apply Hnc|].
  destruct (covers c j) eqn:Ec.
  - rewrite place_covers by exact Ec. unfold view_at.
    rewrite split_same by (try apply covers_iff; trivial). reflexivity.
  - cbn [place]. rewrite Ec. destruct (j <? c_min c); [apply Hnc|].
    rewrite view_at_cons, Ec. exact IH.
Qed.

Lemma place_wf lo j nc cs :
  wf_from lo cs -> lo < j -> j <= LAST_COLUMN -> c_min nc = j -> c_max nc = j ->
  wf_from lo (place j nc cs).
Proof.
  intros Hwf Hlo Hhi Hmin Hmax. revert lo Hwf Hlo.
  induction cs as [|c r IH]; intros lo Hwf Hlo.
  - cbn [place wf_from]. repeat split; lia.
  - destruct (covers c j) eqn:Ec.
    + rewrite place_covers by exact Ec. apply split_wf; [apply covers_iff| | |]; trivial.
    + cbn [place]. rewrite Ec. apply covers_false_iff in Ec.
      cbn [wf_from] in Hwf. destruct Hwf as (H1 & H2 & H3 & H4).
      destruct (Z.ltb_spec j (c_min c)); cbn [wf_from]; repeat split; try lia; try exact H4.
      apply IH; [exact H4 | lia].
Qed.

Lemma view_at_unstyle_other j k cs : k <> j -> view_at (unstyle j cs) k = view_at cs k.
Proof.
  intros Hne. induction cs as [|c r IH]; [reflexivity|].
  destruct (covers c j) eqn:Ec.
  - rewrite unstyle_covers by exact Ec.
    apply split_other; [apply covers_iff; exact Ec | reflexivity | reflexivity | exact Hne].
  - cbn [unstyle]. rewrite Ec. destruct (j <? c_min c); [reflexivity|].
    rewrite !view_at_cons, IH. reflexivity.
Qed.

Lemma find_unstyle_same lo j cs :
  wf_from lo cs ->
  find_col j (unstyle j cs) =
  match find_col j cs with
  | Some c => if c_custom c || c_hidden c
              then Some (mkCol j j (c_width c) (c_custom c) (c_hidden c) None) else None
  | None => None
  end.
Proof.
  revert lo; induction cs as [|c r IH]; intros lo Hwf; [reflexivity|].
  cbn [wf_from] in Hwf. destruct Hwf as (H1 & H2 & H3 & H4).
  destruct (covers c j) eqn:Ec.
  - rewrite unstyle_covers by exact Ec. cbn [find_col]. rewrite Ec. apply covers_iff in Ec.
    rewrite split_same by trivial.
    rewrite (find_none_below (c_max c) r j H4) by lia. reflexivity.
  - cbn [unstyle find_col]. rewrite Ec. apply covers_false_iff in Ec.
    destruct (Z.ltb_spec j (c_min c)); cbn [find_col]; rewrite (proj2 (covers_false_iff c j)) by exact Ec.
    + rewrite (find_none_below (c_max c) r j H4) by lia. reflexivity.
    + apply (IH (c_max c)). exact H4.
Qed.

Lemma unstyle_wf lo j cs : wf_from lo cs -> wf_from lo (unstyle j cs).
Proof.
  revert lo; induction cs as [|c r IH]; intros lo Hwf; [exact I|].
  destruct (covers c j) eqn:Ec.
  - rewrite unstyle_covers by exact Ec. apply split_wf; [apply covers_iff| | |]; trivial.
  - cbn [unstyle]. rewrite Ec. destruct (j <? c_min c); [exact Hwf|].
    cbn [wf_from] in *. destruct Hwf as (H1 & H2 & H3 & H4). repeat split; try assumption.
    apply IH. exact H4.
Qed.

(* observations are functions of the view *)
Lemma obs_of_view up cs cs' j j' :
  view_at cs' j' = view_at cs j ->
  width_at up cs' j' = width_at up cs j /\ hidden_at cs' j' = hidden_at cs j /\
  style_at cs' j' = style_at cs j /\ shown_width_at up cs' j' = shown_width_at up cs j.
Proof.
  unfold view_at, width_at, hidden_at, style_at, shown_width_at.
  destruct (find_col j' cs') as [a|]; destruct (find_col j cs) as [b|]; cbn [option_map]; intro H;
    try discriminate; [|repeat split; reflexivity].
  unfold view in H. injection H as H1 H2 H3 H4. rewrite H1, H2, H3, H4. repeat split; reflexivity.
Qed.

Lemma shown_eq up cs j :
  shown_width_at up cs j = if hidden_at cs j then 0 else width_at up cs j.
Proof.
  unfold shown_width_at, hidden_at, width_at. destruct (find_col j cs) as [c|]; reflexivity.
Qed.

Lemma upd_same {A} (f : Z -> A) j v : upd f j v j = v.
Proof. unfold upd. rewrite Z.eqb_refl. reflexivity. Qed.

Section Ops.
Variables down up : Z -> Z.
Hypothesis up_down : forall w, up (down w) = w.

(* ---- set_column_width_and_style ---------------------------------------------------------- *)
Lemma scwas_eq cs j w h s :
  set_column_width_and_style down cs j w h s =
  if is_valid_column_number j && negb (w <? 0)
  then Ok (place j (mkCol j j (down w) (negb (w =? DEFAULT_COLUMN_WIDTH)) h s) cs) else Err.
Proof.
  unfold set_column_width_and_style. destruct (is_valid_column_number j); [destruct (w <? 0)|]; reflexivity.
Qed.

Lemma scwas_ok cs j w h s cs' :
  set_column_width_and_style down cs j w h s = Ok cs' ->
  is_valid_column_number j = true /\
  cs' = place j (mkCol j j (down w) (negb (w =? DEFAULT_COLUMN_WIDTH)) h s) cs.
Proof.
  rewrite scwas_eq. destruct (is_valid_column_number j); [|discriminate].
  destruct (w <? 0); [discriminate|]. intro H. injection H as <-. split; reflexivity.
Qed.

Lemma scwas_other cs j w h s cs' j' :
  set_column_width_and_style down cs j w h s = Ok cs' -> j' <> j ->
  view_at cs' j' = view_at cs j'.
Proof.
  intros H Hne. apply scwas_ok in H as (_ & ->).
  apply view_at_place_other; [exact Hne | reflexivity | reflexivity].
Qed.

(* the three maps after the surgery: updated at j with what was passed in, elsewhere as before *)
Lemma place_reads cs j w h s k :
  let cs' := place j (mkCol j j (down w) (negb (w =? DEFAULT_COLUMN_WIDTH)) h s) cs in
  width_at up cs' k = upd (width_at up cs) j w k /\ hidden_at cs' k = upd (hidden_at cs) j h k /\
  style_at cs' k = upd (style_at cs) j s k.
Proof.
  set (nc := mkCol j j (down w) (negb (w =? DEFAULT_COLUMN_WIDTH)) h s). intro cs'. unfold upd.
  destruct (Z.eqb_spec k j) as [->|Hne].
  - pose proof (view_at_place_same j nc cs eq_refl eq_refl : view_at cs' j = _) as Hv.
    unfold width_at, hidden_at, style_at. unfold view_at in Hv.
    destruct (find_col j cs') as [c'|]; [|discriminate]. injection Hv as -> -> -> ->.
    destruct (Z.eqb_spec w DEFAULT_COLUMN_WIDTH) as [->|]; cbn [negb]; rewrite ?up_down; repeat split; reflexivity.
  - pose proof (view_at_place_other j k nc cs Hne eq_refl eq_refl : view_at cs' k = _) as Hv.
    apply (obs_of_view up) in Hv as (H1 & H2 & H3 & _). repeat split; assumption.
Qed.

(* the column reads exactly the width, hidden flag and style that were passed in *)
Lemma scwas_same cs j w h s cs' :
  set_column_width_and_style down cs j w h s = Ok cs' ->
  width_at up cs' j = w /\ hidden_at cs' j = h /\ style_at cs' j = s.
Proof.
  intro H. apply scwas_ok in H as (_ & ->).
  destruct (place_reads cs j w h s j) as (-> & -> & ->). rewrite !upd_same. repeat split; reflexivity.
Qed.

Lemma scwas_wf cs j w h s cs' :
  wf cs -> set_column_width_and_style down cs j w h s = Ok cs' -> wf cs'.
Proof.
  intros Hwf H. apply scwas_ok in H as (Hv & ->). apply valid_iff in Hv.
  apply place_wf; [exact Hwf | lia | lia | reflexivity | reflexivity].
Qed.

(* ---- the four operations: what they boil down to --------------------------------------------- *)
Definition core (cs : cols) (o : cop) : outcome cols :=
  match o with
  | SetWidth j w => set_column_width_and_style down cs j w (hidden_at cs j) (style_at cs j)
  | SetHidden j b => set_column_width_and_style down cs j (width_at up cs j) b (style_at cs j)
  | SetStyle j s => set_column_width_and_style down cs j (width_at up cs j) (hidden_at cs j) (Some s)
  | DelStyle j => delete_column_style cs j
  end.

Lemma apply_core cs o : apply_cop down up cs o = core cs o.
Proof.
  destruct o as [j w|j b|j s|j]; cbn [apply_cop core]; try reflexivity;
    unfold set_column_width, set_column_hidden, set_column_style, get_column_style, is_column_hidden,
      get_actual_column_width, set_column_width_and_style;
    destruct (is_valid_column_number j); reflexivity.
Qed.

(* ---- FRAME, part 1: every other column keeps every attribute (any layout, no premise) ---------- *)
Theorem cop_other_columns cs o cs' j' :
  apply_cop down up cs o = Ok cs' -> j' <> cop_col o ->
  view_at cs' j' = view_at cs j'.
Proof.
  rewrite apply_core. destruct o as [j w|j b|j s|j]; cbn [core cop_col]; intros H Hne;
    try (eapply scwas_other; eassumption).
  unfold delete_column_style in H. destruct (is_valid_column_number j); [|discriminate].
  injection H as <-. apply view_at_unstyle_other. exact Hne.
Qed.

(* ---- FRAME, part 2: the column itself ----------------------------------------------------------- *)
Theorem set_width_same cs j w cs' :
  set_column_width down cs j w = Ok cs' ->
  width_at up cs' j = w /\ hidden_at cs' j = hidden_at cs j /\ style_at cs' j = style_at cs j.
Proof. rewrite (apply_core cs (SetWidth j w) : set_column_width down cs j w = _). apply scwas_same. Qed.

Theorem set_hidden_same cs j b cs' :
  set_column_hidden down up cs j b = Ok cs' ->
  hidden_at cs' j = b /\ width_at up cs' j = width_at up cs j /\ style_at cs' j = style_at cs j.
Proof.
  rewrite (apply_core cs (SetHidden j b) : set_column_hidden down up cs j b = _).
  intro H. apply scwas_same in H as (H1 & H2 & H3). auto.
Qed.

Theorem set_style_same cs j s cs' :
  set_column_style down up cs j s = Ok cs' ->
  style_at cs' j = Some s /\ width_at up cs' j = width_at up cs j /\ hidden_at cs' j = hidden_at cs j.
Proof.
  rewrite (apply_core cs (SetStyle j s) : set_column_style down up cs j s = _).
  intro H. apply scwas_same in H as (H1 & H2 & H3). auto.
Qed.

(* delete_column_style: the style goes, width and hidden flag stay; a descriptor that is dropped
   read the default width and not hidden *)
Lemma unstyle_reads cs j k :
  wf cs ->
  width_at up (unstyle j cs) k = width_at up cs k /\ hidden_at (unstyle j cs) k = hidden_at cs k /\
  style_at (unstyle j cs) k = upd (style_at cs) j None k.
Proof.
  intro Hwf. unfold upd. destruct (Z.eqb_spec k j) as [->|Hne].
  - unfold style_at, width_at, hidden_at. rewrite (find_unstyle_same 0 j cs Hwf).
    destruct (find_col j cs) as [c|]; [|repeat split; reflexivity].
    destruct (c_custom c) eqn:Ecu, (c_hidden c) eqn:Eh;
      cbn [orb c_style c_custom c_width c_hidden]; repeat split; reflexivity.
  - destruct (obs_of_view up _ _ _ _ (view_at_unstyle_other j k cs Hne)) as (H1 & H2 & H3 & _).
    repeat split; assumption.
Qed.

Theorem del_style_same cs j cs' :
  wf cs -> delete_column_style cs j = Ok cs' ->
  style_at cs' j = None /\ width_at up cs' j = width_at up cs j /\ hidden_at cs' j = hidden_at cs j.
Proof.
  intros Hwf H. unfold delete_column_style in H.
  destruct (is_valid_column_number j); [|discriminate]. injection H as <-.
  destruct (unstyle_reads cs j j Hwf) as (H1 & H2 & H3). rewrite upd_same in H3. auto.
Qed.

(* ---- well-formedness is preserved by every operation (reused by C27) ---------------------------- *)
Theorem apply_cop_wf cs o cs' : wf cs -> apply_cop down up cs o = Ok cs' -> wf cs'.
Proof.
  intro Hwf. rewrite apply_core. destruct o as [j w|j b|j s|j]; cbn [core]; intro H;
    try (eapply scwas_wf; eassumption).
  unfold delete_column_style in H. destruct (is_valid_column_number j); [|discriminate].
  injection H as <-. apply unstyle_wf. exact Hwf.
Qed.

Theorem step_cop_wf cs o : wf cs -> wf (step_cop down up cs o).
Proof.
  intro Hwf. unfold step_cop. destruct (apply_cop down up cs o) as [cs'| |] eqn:E; try exact Hwf.
  eapply apply_cop_wf; eassumption.
Qed.

Theorem run_cops_wf cs os : wf cs -> wf (run_cops down up cs os).
Proof.
  unfold run_cops. revert cs; induction os as [|o r IH]; intros cs Hwf; cbn [fold_left]; [exact Hwf|].
  apply IH. apply step_cop_wf. exact Hwf.
Qed.

(* histories: the layout behaves as three independent total maps *)
Lemma agrees_abs_of cs : agrees up cs (abs_of (width_at up) cs).
Proof. intro j. cbn [abs_of a_width a_hidden a_style]. repeat split; reflexivity. Qed.

(* one step is simulated by the point update; only delete_column_style needs the layout well
   formed (a second descriptor over the same column would show once the first is gone) *)
Theorem sim_step cs a o :
  (forall j, o = DelStyle j -> wf cs) -> agrees up cs a ->
  agrees up (step_cop down up cs o) (abs_step a o).
Proof.
  intros Hwf Hag k. unfold step_cop. rewrite apply_core.
  destruct o as [j w|j b|j s|j]; cbn [core abs_step]; unfold delete_column_style; rewrite ?scwas_eq.
  (* set_column_hidden and set_column_style pass the width they read back, which the abstract
     step tests as well *)
  2, 3: rewrite <- (proj1 (Hag j)).
  (* a refused call changes neither side *)
  1: destruct (is_valid_column_number j && negb (w <? 0)); [|exact (Hag k)].
  2, 3: destruct (is_valid_column_number j && negb (width_at up cs j <? 0)); [|exact (Hag k)].
  4: destruct (is_valid_column_number j); cbn [negb]; [|exact (Hag k)].
  all: cbn [a_width a_hidden a_style]; destruct (Hag k) as (G1 & G2 & G3).
  1: destruct (place_reads cs j w (hidden_at cs j) (style_at cs j) k) as (-> & -> & ->).
  2: destruct (place_reads cs j (width_at up cs j) b (style_at cs j) k) as (-> & -> & ->).
  3: destruct (place_reads cs j (width_at up cs j) (hidden_at cs j) (Some s) k) as (-> & -> & ->).
  4: destruct (unstyle_reads cs j k (Hwf j eq_refl)) as (-> & -> & ->).
  all: unfold upd; destruct (Z.eqb_spec k j) as [->|_]; repeat split; assumption || reflexivity.
Qed.

(* HISTORIES *)
Theorem cols_history : cols_history_statement down up.
Proof.
  intros cs os Hwf. pose proof (agrees_abs_of cs) as Hag. revert Hag. generalize (abs_of (width_at up) cs).
  unfold run_cops. revert cs Hwf.
  induction os as [|o r IH]; intros cs Hwf a Hag; cbn [fold_left]; [exact Hag|].
  apply IH; [apply step_cop_wf; exact Hwf | apply sim_step; [intros; exact Hwf | exact Hag]].
Qed.

(* ---- the property in its own words ------------------------------------------------------------ *)
Lemma agrees_get cs a at' j : agrees up cs a -> get up at' cs j = aget at' a j.
Proof. intro H. destruct (H j) as (G1 & G2 & G3). destruct at'; cbn [get aget]; congruence. Qed.

Lemma abs_step_frame a o at' j' :
  (cop_col o, cop_attr o) <> (j', at') -> aget at' (abs_step a o) j' = aget at' a j'.
Proof.
  intro Hne.
  destruct o as [j w|j b|j s|j]; cbn [abs_step cop_col cop_attr] in *;
    match goal with |- context [if ?c then _ else _] => destruct c end; try reflexivity;
    destruct at'; cbn [aget a_width a_hidden a_style]; try reflexivity;
    unfold upd; (destruct (Z.eqb_spec j' j) as [->|_]; [congruence | reflexivity]).
Qed.

(* FRAME: every other (column, attribute) pair keeps its value — also when the call is refused *)
Theorem step_cop_frame cs o j' at' :
  (forall j, o = DelStyle j -> wf cs) -> (cop_col o, cop_attr o) <> (j', at') ->
  get up at' (step_cop down up cs o) j' = get up at' cs j'.
Proof.
  intros Hwf Hne.
  pose proof (sim_step cs _ o Hwf (agrees_abs_of cs)) as Hag.
  rewrite (agrees_get _ _ at' j' Hag), abs_step_frame by exact Hne.
  symmetry. apply agrees_get. apply agrees_abs_of.
Qed.

Theorem cols_frame : cols_frame_statement down up.
Proof. intros cs o j' at' Hwf. apply step_cop_frame. intros; exact Hwf. Qed.

(* READ-BACK: the pair that was set has the value that was set *)
Theorem cols_readback : cols_readback_statement down up.
Proof.
  intros cs o cs' Hwf E. destruct o as [j w|j b|j s|j]; cbn [apply_cop cop_attr cop_col cop_val get] in *.
  - apply set_width_same in E as (-> & _). reflexivity.
  - apply set_hidden_same in E as (-> & _). reflexivity.
  - apply set_style_same in E as (-> & _). reflexivity.
  - apply (del_style_same cs j cs' Hwf) in E as (-> & _). reflexivity.
Qed.

End Ops.

Lemma wf_b_iff lo cs : wf_from_b lo cs = true <-> wf_from lo cs.
Proof.
  revert lo; induction cs as [|c r IH]; intro lo; cbn [wf_from_b wf_from]; [tauto|].
  rewrite !andb_true_iff, Z.ltb_lt, !Z.leb_le, IH. tauto.
Qed.

Definition idz (z : Z) : Z := z.

(* the three former witnesses of F23a/b/c now satisfy the property (regression examples) *)
Example former_witnesses_pass :
  (* a: style set inside a multi-column descriptor *)
  (exists cs', set_column_style idz idz [mkCol 2 5 5 true false None] 3 7 = Ok cs' /\
               style_at cs' 3 = Some 7 /\ style_at cs' 2 = None /\ style_at cs' 4 = None) /\
  (* b: style set on a hidden column keeps its width *)
  (exists cs', set_column_style idz idz [mkCol 3 3 45 true true None] 3 7 = Ok cs' /\
               width_at idz cs' 3 = 45 /\ hidden_at cs' 3 = true) /\
  (* c: deleting the style of a hidden column keeps it hidden, with or without custom width *)
  (exists cs', delete_column_style [mkCol 3 3 45 true true (Some 7)] 3 = Ok cs' /\
               hidden_at cs' 3 = true /\ style_at cs' 3 = None) /\
  (exists cs', delete_column_style [mkCol 2 4 5 false true (Some 7)] 3 = Ok cs' /\
               hidden_at cs' 3 = true /\ style_at cs' 3 = None /\ style_at cs' 2 = Some 7).
Proof. repeat split; eexists; repeat split; vm_compute; reflexivity. Qed.

(* non-vacuity: a history over a layout with a 4-column descriptor and a descriptor at 16384 *)
Example history_example :
  let cs := [mkCol 2 5 5 true false (Some 1); mkCol 16384 16384 20 true true None] in
  let os := [SetWidth 3 45; SetHidden 4 true; SetStyle 9 2; DelStyle 3; SetHidden 16384 false; SetStyle 3 1;
             SetStyle 4 2; DelStyle 4] in
  wf_b cs = true /\
  run_cops idz idz cs os =
    [mkCol 2 2 5 true false (Some 1); mkCol 3 3 45 true false (Some 1); mkCol 4 4 5 true true None;
     mkCol 5 5 5 true false (Some 1); mkCol 9 9 90 false false (Some 2);
     mkCol 16384 16384 20 true false None].
Proof. vm_compute. split; reflexivity. Qed.

(* corollary in the property's vocabulary *)
Theorem cols_other_columns_get down up cs o cs' j' at' :
  apply_cop down up cs o = Ok cs' -> j' <> cop_col o -> get up at' cs' j' = get up at' cs j'.
Proof.
  intros E Hne. pose proof (cop_other_columns down up cs o cs' j' E Hne) as Hv.
  apply (obs_of_view up) in Hv as (H1 & H2 & H3 & _).
  destruct at'; cbn [get]; congruence.
Qed.
