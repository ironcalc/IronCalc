(* Sheet/StyleLayerProofs.v — a style assigned to a cell, a row or a column is what the cell-level
   getter resolves, and no other cell changes. *)
From IronCalc Require Import Base.Prelude Sheet.Cols Sheet.ColsProofs Sheet.Rows Sheet.RowsProofs
  Sheet.Styles Sheet.StylesProofs Sheet.StyleLayer.

Lemma cell_put_same r c i cs : cell_style r c (put_cell r c i cs) = Some i.
Proof.
  induction cs as [|[[r' c'] i'] t IH]; cbn [put_cell cell_style].
  - rewrite !Z.eqb_refl. reflexivity.
  - destruct ((r' =? r) && (c' =? c)) eqn:E; cbn [cell_style]; rewrite E; [reflexivity | exact IH].
Qed.

Lemma cell_put_other r c i r' c' cs :
  (r', c') <> (r, c) -> cell_style r' c' (put_cell r c i cs) = cell_style r' c' cs.
Proof.
  intro Hne.
  assert (Hrc : (r =? r') && (c =? c') = false).
  { apply andb_false_iff. rewrite !Z.eqb_neq. destruct (Z.eq_dec r r'); [right | left]; congruence. }
  induction cs as [|[[r0 c0] i0] t IH]; cbn [put_cell cell_style]; [rewrite Hrc; reflexivity|].
  destruct ((r0 =? r) && (c0 =? c)) eqn:E; cbn [cell_style]; [|rewrite IH; reflexivity].
  apply andb_true_iff in E as (E1 & E2). apply Z.eqb_eq in E1, E2. subst r0 c0. rewrite Hrc. reflexivity.
Qed.

Lemma set_cell_style_ok l r c i l' :
  set_cell_style l r c i = Ok l' ->
  l' = mkLayer (put_cell r c i (l_cells l)) (l_rows l) (l_cols l).
Proof.
  unfold set_cell_style. destruct (cell_style r c (l_cells l)); [intro H; injection H as <-; reflexivity|].
  destruct (is_valid_row r && is_valid_column_number c); [intro H; injection H as <-; reflexivity | discriminate].
Qed.

(* the cell that was assigned reads the index; every other cell reads what it read before *)
Theorem set_cell_style_readback l r c i l' :
  set_cell_style l r c i = Ok l' -> get_cell_style_index l' r c = i.
Proof.
  intro H. apply set_cell_style_ok in H. subst l'. unfold get_cell_style_index. cbn [l_cells].
  rewrite cell_put_same. reflexivity.
Qed.

Theorem set_cell_style_frame l r c i l' r' c' :
  set_cell_style l r c i = Ok l' -> (r', c') <> (r, c) ->
  get_cell_style_index l' r' c' = get_cell_style_index l r' c'.
Proof.
  intros H Hne. apply set_cell_style_ok in H. subst l'. unfold get_cell_style_index, row_column_style.
  cbn [l_cells l_rows l_cols]. rewrite cell_put_other by exact Hne. reflexivity.
Qed.

(* rows: the record carries the index; cells of the row without a style of their own read it when
   it is not 0 (index 0 switches custom_format off and the cell falls through to the column) *)
Theorem set_row_style_layer down l r i l' :
  layer_set_row_style down l r i = Ok l' ->
  Rows.get_row_style (l_rows l') r = Some i /\
  forall c, cell_style r c (l_cells l') = None ->
    get_cell_style_index l' r c =
    if i =? 0 then match find_col c (l_cols l') with
                   | Some d => match c_style d with Some k => k | None => 0 end
                   | None => 0 end
    else i.
Proof.
  unfold layer_set_row_style, Rows.set_row_style. intro H. injection H as <-.
  unfold Rows.get_row_style, get_cell_style_index, row_column_style. cbn [l_rows l_cells l_cols].
  rewrite find_modify, Z.eqb_refl by reflexivity. split.
  - destruct (find_row r (l_rows l)); reflexivity.
  - intros c ->. destruct (find_row r (l_rows l)); cbn [r_custom_format r_s]; destruct (i =? 0); reflexivity.
Qed.

(* columns: the descriptor carries the index, and cells of the column without a style of their
   own, in rows without custom_format, read it *)
Theorem set_column_style_layer down up (up_down : forall w, up (down w) = w) l c i l' :
  layer_set_column_style down up l c i = Ok l' ->
  style_at (l_cols l') c = Some i /\
  forall r, cell_style r c (l_cells l') = None ->
    (match find_row r (l_rows l') with Some x => r_custom_format x = false | None => True end) ->
    get_cell_style_index l' r c = i.
Proof.
  unfold layer_set_column_style.
  destruct (Cols.set_column_style down up (l_cols l) c i) as [cs| |] eqn:E; try discriminate.
  intro H. injection H as <-. cbn [l_rows l_cells l_cols].
  pose proof (set_style_same down up up_down (l_cols l) c i cs E) as (Hr & _).
  split; [exact Hr|]. intros r Hc Hrow.
  unfold get_cell_style_index, row_column_style. cbn [l_cells l_rows l_cols]. rewrite Hc.
  unfold style_at in Hr.
  destruct (find_col c cs) as [d|]; [|discriminate]. rewrite Hr.
  destruct (find_row r (l_rows l)) as [x|]; [rewrite Hrow|]; reflexivity.
Qed.


(* ---- the order of attribute operations does not matter for what cells read -------------------- *)
Lemma row_column_style_eq l r c :
  row_column_style l r c =
  (let (s, cf) := rstyle_at (l_rows l) r in
   if cf then s else match style_at (l_cols l) c with Some i => i | None => 0 end).
Proof.
  unfold row_column_style, rstyle_at, style_at.
  destruct (find_row r (l_rows l)) as [x|]; [destruct (r_custom_format x)|]; try reflexivity;
    destruct (find_col c (l_cols l)) as [d|]; reflexivity.
Qed.

(* of the six row and column attributes a cell reads two *)
Lemma cell_style_ext l l' r c :
  l_cells l' = l_cells l -> rstyle_at (l_rows l') r = rstyle_at (l_rows l) r ->
  style_at (l_cols l') c = style_at (l_cols l) c ->
  get_cell_style_index l' r c = get_cell_style_index l r c /\
  get_cell_style_or_none l' r c = get_cell_style_or_none l r c.
Proof.
  unfold get_cell_style_index, get_cell_style_or_none. rewrite !row_column_style_eq.
  intros -> -> ->. split; reflexivity.
Qed.

Section SizeOps.
Variables down up : Z -> Z.
Hypothesis up_down : forall w, up (down w) = w.
Variables (l : layer) (r c : Z).

(* by C29 a row operation on another attribute keeps the row styles, a column operation the
   column styles; a refused call keeps the layer *)
Lemma row_op_keeps_cell_styles ro :
  rop_attr ro <> RStyle ->
  let l' := match with_rows l (apply_rop down (l_rows l) ro) with Ok l' => l' | _ => l end in
  get_cell_style_index l' r c = get_cell_style_index l r c /\
  get_cell_style_or_none l' r c = get_cell_style_or_none l r c.
Proof.
  intros Hat l'. subst l'.
  pose proof (rows_frame down up up_down (l_rows l) ro r RStyle ltac:(congruence)) as Hf.
  unfold step_rop in Hf. destruct (apply_rop down (l_rows l) ro); cbn [with_rows]; try (split; reflexivity).
  apply cell_style_ext; cbn [l_cells l_rows l_cols]; try reflexivity. cbn [rget] in Hf. congruence.
Qed.

Lemma col_op_keeps_cell_styles co :
  cop_attr co <> Style ->
  let l' := match with_cols l (apply_cop down up (l_cols l) co) with Ok l' => l' | _ => l end in
  get_cell_style_index l' r c = get_cell_style_index l r c /\
  get_cell_style_or_none l' r c = get_cell_style_or_none l r c.
Proof.
  intros Hat l'. subst l'.
  pose proof (step_cop_frame down up up_down (l_cols l) co c Style
                (fun j E => False_ind _ (Hat (f_equal cop_attr E))) ltac:(congruence)) as Hf.
  unfold step_cop in Hf. destruct (apply_cop down up (l_cols l) co); cbn [with_cols]; try (split; reflexivity).
  apply cell_style_ext; cbn [l_cells l_rows l_cols]; try reflexivity. cbn [get] in Hf. congruence.
Qed.
End SizeOps.

(* height / width / hidden operations on any row or column, applied to any layer, change the
   style no cell reads (neither get_cell_style_index nor get_cell_style_or_none) *)
Theorem size_ops_keep_cell_styles down up (up_down : forall w, up (down w) = w) l o r c :
  (match o with LRowHeight _ _ | LRowHidden _ _ | LColWidth _ _ | LColHidden _ _ => True | _ => False end) ->
  get_cell_style_index (step_lop down up l o) r c = get_cell_style_index l r c /\
  get_cell_style_or_none (step_lop down up l o) r c = get_cell_style_or_none l r c.
Proof.
  intro Ho. unfold step_lop.
  destruct o as [r0 c0 i|r0 i|c0 i|r0 h|r0 b|r0|c0 w|c0 b|c0]; try contradiction; cbn [apply_lop].
  - apply (row_op_keeps_cell_styles down up up_down l r c (SetHeight r0 h)). discriminate.
  - apply (row_op_keeps_cell_styles down up up_down l r c (SetRowHidden r0 b)). discriminate.
  - apply (col_op_keeps_cell_styles down up up_down l r c (SetWidth c0 w)). discriminate.
  - apply (col_op_keeps_cell_styles down up up_down l r c (SetHidden c0 b)). discriminate.
Qed.

(* ---- C30 at cell level: assign = intern + store the index; read = index + resolve -------------- *)
Section Cells.
Context {font fill border align : Type}.
Context {font_eqb : font -> font -> bool} {fill_eqb : fill -> fill -> bool}
        {border_eqb : border -> border -> bool} {align_eqb : align -> align -> bool}.
Hypothesis font_eqb_eq : forall a b, font_eqb a b = true -> a = b.
Hypothesis fill_eqb_eq : forall a b, fill_eqb a b = true -> a = b.
Hypothesis border_eqb_eq : forall a b, border_eqb a b = true -> a = b.
Hypothesis align_eqb_eq : forall a b, align_eqb a b = true -> a = b.

Notation intern := (intern font_eqb fill_eqb border_eqb align_eqb).

(* Model::set_cell_style followed by Model::get_style_for_cell returns the style, and every other
   cell whose index was valid keeps the style it resolved to *)
Theorem cell_assignment (st : styles font fill border align) s st' i l r c l' :
  wf_styles st -> intern st s = Ok (st', i) -> set_cell_style l r c i = Ok l' ->
  get_style st' (get_cell_style_index l' r c) = Ok s /\
  forall r' c', (r', c') <> (r, c) ->
    get_cell_style_index l' r' c' = get_cell_style_index l r' c' /\
    (0 <= get_cell_style_index l r' c' < len (st_xfs st) ->
     get_style st' (get_cell_style_index l' r' c') = get_style st (get_cell_style_index l r' c')).
Proof.
  intros Hwf Hi Hs. split.
  - rewrite (set_cell_style_readback l r c i l' Hs). eapply intern_readback; eassumption.
  - intros r' c' Hne. pose proof (set_cell_style_frame l r c i l' r' c' Hs Hne) as Hf.
    split; [exact Hf|]. rewrite Hf. eapply intern_stable; eassumption.
Qed.

(* Model::set_row_style with a non-default style, on ANY layer (whatever record the row had before:
   none, one created by set_row_height / set_row_hidden, one carrying the default style, one
   whose style was deleted): the row getter and every cell of the row without a style of its own
   read the style *)
Theorem row_assignment (st : styles font fill border align) s st' i down l r l' :
  wf_styles st -> intern st s = Ok (st', i) -> i <> 0 -> layer_set_row_style down l r i = Ok l' ->
  (exists k, Rows.get_row_style (l_rows l') r = Some k /\ get_style st' k = Ok s) /\
  forall c, get_cell_style_or_none l' r c = None -> get_style st' (get_cell_style_index l' r c) = Ok s.
Proof.
  intros Hwf Hi Hnz Hs.
  assert (Hr : get_style st' i = Ok s) by (eapply intern_readback; eassumption).
  destruct (set_row_style_layer down l r i l' Hs) as (H1 & H2). split.
  - exists i. split; assumption.
  - intros c Hc. rewrite (H2 c Hc). apply Z.eqb_neq in Hnz. rewrite Hnz. exact Hr.
Qed.

(* the same for columns (rows with custom_format take precedence, as in get_cell_style_index) *)
Theorem column_assignment (st : styles font fill border align) s st' i down up l c l' :
  (forall w, up (down w) = w) ->
  wf_styles st -> intern st s = Ok (st', i) -> layer_set_column_style down up l c i = Ok l' ->
  (exists k, style_at (l_cols l') c = Some k /\ get_style st' k = Ok s) /\
  forall r, get_cell_style_or_none l' r c = None ->
    (match find_row r (l_rows l') with Some x => r_custom_format x = false | None => True end) ->
    get_style st' (get_cell_style_index l' r c) = Ok s.
Proof.
  intros Hud Hwf Hi Hs.
  assert (Hr : get_style st' i = Ok s) by (eapply intern_readback; eassumption).
  destruct (set_column_style_layer down up Hud l c i l' Hs) as (H1 & H2). split.
  - exists i. split; assumption.
  - intros r Hc Hrow. rewrite (H2 r Hc Hrow). exact Hr.
Qed.

End Cells.
