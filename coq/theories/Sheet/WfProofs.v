(* Sheet/WfProofs.v — well-formedness is established by new_empty and preserved by the modelled
   operations (property C27).  Reuses ColsProofs (column descriptor surgery) and SpillProofs. *)
From IronCalc Require Import Base.Prelude Eval.Spill Eval.SpillProofs Sheet.Wf.
From IronCalc Require Sheet.Cols Sheet.ColsProofs.

(* ---- lists --------------------------------------------------------------------------------------- *)
Lemma forallb_upd_nth {A} (P : A -> bool) f i (l : list A) :
  (forall x, P x = true -> P (f x) = true) -> forallb P l = true -> forallb P (upd_nth i f l) = true.
Proof.
  intros Hf. revert i; induction l as [|x r IH]; intros i H; [destruct i; reflexivity|]. cbn [upd_nth].
  cbn [forallb] in H. apply andb_true_iff in H as [Hx Hr].
  destruct i; cbn [upd_nth forallb]; apply andb_true_iff; split; auto.
Qed.

Lemma map_upd_nth_same {A B} (g : A -> B) f i (l : list A) :
  (forall x, g (f x) = g x) -> map g (upd_nth i f l) = map g l.
Proof.
  intros Hf. revert i; induction l as [|x r IH]; intros i; [destruct i; reflexivity|]. cbn [upd_nth].
  destruct i; cbn [upd_nth map]; [rewrite Hf; reflexivity | rewrite IH; reflexivity].
Qed.

(* the element at an index with the lists around it ([nth_error_split]): what updating and
   removing it give; an index past the end updates nothing *)
Lemma upd_nth_app {A} f (l1 : list A) s l2 : upd_nth (length l1) f (l1 ++ s :: l2) = l1 ++ f s :: l2.
Proof. induction l1 as [|x l1 IH]; cbn [length app upd_nth]; [|rewrite IH]; reflexivity. Qed.

Lemma upd_nth_none {A} f (l : list A) i : nth_error l i = None -> upd_nth i f l = l.
Proof.
  revert i; induction l as [|x r IH]; intros [|i] H; cbn [upd_nth]; try reflexivity; [discriminate|].
  rewrite IH; [reflexivity | exact H].
Qed.

Lemma remove_nth_app {A} (l1 : list A) s l2 :
  firstn (length l1) (l1 ++ s :: l2) ++ skipn (S (length l1)) (l1 ++ s :: l2) = l1 ++ l2.
Proof. induction l1 as [|x l1 IH]; [reflexivity | exact (f_equal (cons x) IH)]. Qed.

Lemma forallb_weaken {A} (P Q : A -> bool) l : (forall x, P x = true -> Q x = true) -> forallb P l = true -> forallb Q l = true.
Proof. intros H. rewrite !forallb_forall. auto. Qed.

Lemma forallb_andb {A} (P Q : A -> bool) l : forallb (fun x => P x && Q x) l = forallb P l && forallb Q l.
Proof.
  induction l as [|x r IH]; cbn [forallb]; [reflexivity|]. rewrite IH.
  destruct (P x), (Q x), (forallb P r); reflexivity.
Qed.

Section NoDup.
Context {A : Type} (eqb : A -> A -> bool).
Hypothesis eqb_eq : forall a b, eqb a b = true <-> a = b.

Lemma existsb_eqb_In x l : existsb (eqb x) l = true <-> In x l.
Proof.
  rewrite existsb_exists. split.
  - intros [y [Hin He]]. apply eqb_eq in He. subst. exact Hin.
  - intros H. exists x. split; [exact H | apply eqb_eq; reflexivity].
Qed.

Lemma nodup_b_iff l : nodup_b eqb l = true <-> NoDup l.
Proof.
  induction l as [|x r IH]; cbn [nodup_b].
  - split; [constructor | reflexivity].
  - rewrite andb_true_iff, negb_true_iff, IH, NoDup_cons_iff, <- existsb_eqb_In, not_true_iff_false. reflexivity.
Qed.
End NoDup.

Lemma NoDup_snoc {A} (l : list A) x : NoDup l -> ~ In x l -> NoDup (l ++ [x]).
Proof. intros Hl Hx. apply (NoDup_Add (Add_app x l [])). rewrite app_nil_r. split; assumption. Qed.

(* ---- columns and rows of one sheet ------------------------------------------------------------------ *)
Lemma cols_step_ok down up cs o : Cols.wf_b cs = true -> Cols.wf_b (Cols.step_cop down up cs o) = true.
Proof. unfold Cols.wf_b. rewrite !ColsProofs.wf_b_iff. apply ColsProofs.step_cop_wf. Qed.

Lemma row_touch_ok r rs : nodup_b Z.eqb rs = true -> nodup_b Z.eqb (row_touch r rs) = true.
Proof.
  unfold row_touch. destruct (existsb (Z.eqb r) rs) eqn:E; [exact (fun H => H)|].
  rewrite !(nodup_b_iff Z.eqb Z.eqb_eq). intro H. apply NoDup_snoc; [exact H|].
  rewrite <- (existsb_eqb_In Z.eqb Z.eqb_eq), E. discriminate.
Qed.

Lemma row_drop_ok r rs : nodup_b Z.eqb rs = true -> nodup_b Z.eqb (row_drop r rs) = true.
Proof. rewrite !(nodup_b_iff Z.eqb Z.eqb_eq). apply NoDup_filter. Qed.

(* ---- the clauses, those about one sheet taken together ------------------------------------------------ *)
Definition sheet_ok_b (ns nx : Z) (s : wsheet) : bool :=
  is_valid_sheet_name (ws_name s) && sheet_cells_ok_b ns nx s && Cols.wf_b (ws_cols s) &&
  nodup_b Z.eqb (ws_rows s) && spill_exact_b (ws_cells s).

Lemma wf_iff wb :
  wf_workbook_b wb = true <->
  forallb (sheet_ok_b (wb_nstrings wb) (Z.of_nat (length (p_xfs (wb_pools wb))))) (wb_sheets wb) = true /\
  NoDup (map ws_uname (wb_sheets wb)) /\ NoDup (map ws_id (wb_sheets wb)) /\
  xfs_ok_b wb = true /\ dnames_ok_b wb = true.
Proof.
  unfold wf_workbook_b, sheet_ok_b, names_valid_b, names_unique_b, ids_unique_b, cells_ok_b, cols_ok_b,
    rows_ok_b, spills_ok_b.
  rewrite !forallb_andb, !andb_true_iff, (nodup_b_iff text_eqb text_eqb_eq), (nodup_b_iff Z.eqb Z.eqb_eq).
  tauto.
Qed.

(* the pools only grow *)
Lemma idx_ok_mono i n m : n <= m -> idx_ok i n = true -> idx_ok i m = true.
Proof. unfold idx_ok. rewrite !andb_true_iff, !Z.leb_le, !Z.ltb_lt. lia. Qed.

Lemma cell_ok_mono ns ns' nx nx' nf e :
  ns <= ns' -> nx <= nx' -> cell_ok_b ns nx nf e = true -> cell_ok_b ns' nx' nf e = true.
Proof.
  intros H1 H2. unfold cell_ok_b. rewrite !andb_true_iff. intros [[Hg Hs] Hk].
  split; [split; [exact Hg | eapply idx_ok_mono; eauto]|].
  destruct (c_k (snd e)) as [|[si|]| | | |]; try exact Hk. eapply idx_ok_mono; eauto.
Qed.

Lemma sheet_ok_mono ns ns' nx nx' s :
  ns <= ns' -> nx <= nx' -> sheet_ok_b ns nx s = true -> sheet_ok_b ns' nx' s = true.
Proof.
  intros H1 H2. unfold sheet_ok_b, sheet_cells_ok_b. rewrite !andb_true_iff.
  intros ((((A & B) & C) & D) & E). repeat split; try assumption.
  revert B. apply forallb_weaken. intros e. apply cell_ok_mono; assumption.
Qed.

Theorem init_wf : wf_workbook_b init = true.
Proof. vm_compute. reflexivity. Qed.

(* ---- each kind of step keeps the clauses ---------------------------------------------------------------- *)
(* one sheet is replaced by a sheet with the same id that passes the per-sheet clauses *)
Lemma sheet_update_wf wb i f :
  (forall s, ws_id (f s) = ws_id s) ->
  (forall ns nx s, sheet_ok_b ns nx s = true -> sheet_ok_b ns nx (f s) = true) ->
  NoDup (map ws_uname (upd_nth i f (wb_sheets wb))) ->
  wf_workbook_b wb = true ->
  wf_workbook_b (mkWb (upd_nth i f (wb_sheets wb)) (wb_nstrings wb) (wb_pools wb) (wb_names wb)) = true.
Proof.
  intros Hid Hok Hu H. apply wf_iff in H as (S & U & I & X & D). apply wf_iff.
  unfold xfs_ok_b, dnames_ok_b in *. cbn [wb_sheets wb_nstrings wb_pools wb_names].
  rewrite (map_upd_nth_same ws_id) by exact Hid. repeat split; try assumption.
  apply forallb_upd_nth; [apply Hok | exact S].
Qed.

(* ... in particular one whose column descriptors and row records were rewritten *)
Lemma cols_rows_update_wf wb i (fc : Cols.cols -> Cols.cols) (fr : list Z -> list Z) :
  (forall cs, Cols.wf_b cs = true -> Cols.wf_b (fc cs) = true) ->
  (forall rs, nodup_b Z.eqb rs = true -> nodup_b Z.eqb (fr rs) = true) ->
  wf_workbook_b wb = true ->
  wf_workbook_b
    (mkWb (upd_nth i (fun s => mkSheet (ws_name s) (ws_uname s) (ws_id s) (ws_cells s) (fc (ws_cols s))
                                 (fr (ws_rows s)) (ws_nformulas s)) (wb_sheets wb))
          (wb_nstrings wb) (wb_pools wb) (wb_names wb)) = true.
Proof.
  intros Hc Hr H. apply sheet_update_wf; [reflexivity | | | exact H].
  - intros ns nx s. unfold sheet_ok_b, sheet_cells_ok_b. cbn [ws_name ws_cells ws_cols ws_rows ws_nformulas].
    rewrite !andb_true_iff. intros ((((A & B) & C) & D) & E). auto.
  - rewrite map_upd_nth_same by reflexivity. apply wf_iff in H. tauto.
Qed.

(* the string table and the style pools grow *)
Lemma pools_grow_wf wb ns' p' :
  wb_nstrings wb <= ns' -> (length (p_xfs (wb_pools wb)) <= length (p_xfs p'))%nat ->
  xfs_ok_b (mkWb (wb_sheets wb) ns' p' (wb_names wb)) = true ->
  wf_workbook_b wb = true -> wf_workbook_b (mkWb (wb_sheets wb) ns' p' (wb_names wb)) = true.
Proof.
  intros Hs Hx X' H. apply wf_iff in H as (S & U & I & X & D). apply wf_iff.
  cbn [wb_sheets wb_nstrings wb_pools wb_names]. repeat split; try assumption.
  revert S. apply forallb_weaken. intro s. apply sheet_ok_mono; lia.
Qed.

Lemma push_xf_ok a b c d p p' :
  forallb (xf_ok_b p) (p_xfs p) = true -> push_xf a b c d p = Some p' ->
  forallb (xf_ok_b p') (p_xfs p') = true /\ (length (p_xfs p) <= length (p_xfs p'))%nat /\ length (p_xfs p') <> 0%nat.
Proof.
  unfold push_xf. destruct (pick a (p_fonts p)) as [fi nf] eqn:Ea. destruct (pick b (p_fills p)) as [li nl] eqn:Eb.
  destruct (pick c (p_borders p)) as [bi nb] eqn:Ec.
  destruct (match d with inl i => (i, p_numfmts p) | inr i => (i, p_numfmts p ++ [i]) end) as [ni nfs] eqn:Ed.
  set (x := mkXfr fi li bi ni). set (q := mkPools nf nl nb nfs (p_xfs p ++ [x])).
  intros Hold H. destruct (xf_ok_b q x) eqn:Hx; [|discriminate]. inversion H; subst p'. clear H.
  assert (Gf : p_fonts p <= nf) by (destruct a; inversion Ea; lia).
  assert (Gl : p_fills p <= nl) by (destruct b; inversion Eb; lia).
  assert (Gb : p_borders p <= nb) by (destruct c; inversion Ec; lia).
  assert (Gn : forall i, existsb (Z.eqb i) (p_numfmts p) = true -> existsb (Z.eqb i) nfs = true).
  { intros i Hi. destruct d; inversion Ed; subst; [exact Hi|]. rewrite existsb_app, Hi. reflexivity. }
  cbn [p_xfs q]. rewrite forallb_app, app_length. cbn [forallb length]. rewrite Hx.
  split; [|lia]. apply andb_true_iff. split; [|reflexivity].
  revert Hold. apply forallb_weaken. intros y. unfold xf_ok_b. cbn [p_fonts p_fills p_borders p_numfmts q].
  rewrite !andb_true_iff, !orb_true_iff. intros [[[A1 A2] A3] A4].
  repeat split; try (eapply idx_ok_mono; eauto). destruct A4 as [A4|A4]; [left; exact A4 | right; apply Gn; exact A4].
Qed.

Lemma max_id_ge l i : In i (map ws_id l) -> i <= max_id l.
Proof.
  induction l as [|s l IH]; cbn [map max_id fold_right In]; [contradiction|].
  intros [<-|Hi]; [lia|]. specialize (IH Hi). unfold max_id in IH. lia.
Qed.

Section Preservation.
Variables down up : Z -> Z.

Section Step.
Variable wb : workbook.
Hypothesis H : wf_workbook_b wb = true.

Lemma step_col_wf i c : wf_workbook_b (step down up wb (OpCol i c)) = true.
Proof.
  apply (cols_rows_update_wf wb i (fun cs => Cols.step_cop down up cs c) (fun rs => rs)); auto using cols_step_ok.
Qed.

Lemma step_row_touch_wf i r : wf_workbook_b (step down up wb (OpRowTouch i r)) = true.
Proof.
  cbn [step]. destruct ((1 <=? r) && (r <=? LAST_ROW)); [|exact H].
  apply (cols_rows_update_wf wb i (fun cs => cs) (row_touch r)); auto using row_touch_ok.
Qed.

Lemma step_row_drop_wf i r : wf_workbook_b (step down up wb (OpRowDrop i r)) = true.
Proof. apply (cols_rows_update_wf wb i (fun cs => cs) (row_drop r)); auto using row_drop_ok. Qed.

Lemma step_style_wf a b c d : wf_workbook_b (step down up wb (OpStyle a b c d)) = true.
Proof.
  cbn [step]. destruct (push_xf a b c d (wb_pools wb)) as [p'|] eqn:E; [|exact H].
  pose proof (proj1 (wf_iff wb) H) as (_ & _ & _ & X & _).
  unfold xfs_ok_b in X. apply andb_true_iff in X as [_ X].
  destruct (push_xf_ok a b c d _ _ X E) as (K1 & K2 & K3).
  apply pools_grow_wf; [lia | exact K2 | | exact H].
  unfold xfs_ok_b. cbn [wb_pools]. rewrite K1, (proj2 (Nat.eqb_neq _ _) K3). reflexivity.
Qed.

Lemma step_string_wf : wf_workbook_b (step down up wb OpString) = true.
Proof. apply pools_grow_wf; [lia | lia | | exact H]. apply wf_iff in H. tauto. Qed.

(* a new sheet whose name no sheet has, with an id above all ids *)
Lemma step_new_sheet_wf name uname : wf_workbook_b (step down up wb (OpNewSheet name uname)) = true.
Proof.
  cbn [step]. destruct (existsb (fun s => text_eqb (ws_uname s) uname) (wb_sheets wb)) eqn:Eu; [exact H|].
  destruct (is_valid_sheet_name name) eqn:Ev; cbn [negb]; [|exact H].
  apply wf_iff in H as (S & U & I & X & D). apply wf_iff.
  unfold xfs_ok_b, dnames_ok_b in *. cbn [wb_sheets wb_nstrings wb_pools wb_names].
  rewrite !map_app, forallb_app. cbn [map forallb ws_uname ws_id]. repeat split; try assumption.
  - rewrite S. unfold sheet_ok_b. cbn [ws_name]. rewrite Ev. reflexivity.
  - apply NoDup_snoc; [exact U|]. intros Hin. apply in_map_iff in Hin as (s & Hs & Hin).
    apply not_true_iff_false in Eu. apply Eu, existsb_exists. exists s. split; [exact Hin | apply text_eqb_eq; exact Hs].
  - apply NoDup_snoc; [exact I|]. intros Hin. apply max_id_ge in Hin. lia.
  - revert D. apply forallb_weaken. intros [j|]; cbn [name_ok_b]; [|auto]. rewrite existsb_app. intros ->. reflexivity.
Qed.

(* rename: the new name is valid and no other sheet has it *)
Lemma step_rename_wf i name uname : wf_workbook_b (step down up wb (OpRename i name uname)) = true.
Proof.
  cbn [step]. destruct (is_valid_sheet_name name) eqn:Ev; cbn [negb]; [|exact H].
  destruct (existsb (text_eqb uname) _) eqn:Eo; [exact H|].
  apply sheet_update_wf; [reflexivity | | | exact H].
  - intros ns nx s. unfold sheet_ok_b, sheet_cells_ok_b. cbn [ws_name ws_cells ws_cols ws_rows ws_nformulas].
    rewrite Ev, !andb_true_iff. tauto.
  - apply wf_iff in H as (_ & U & _).
    destruct (nth_error (wb_sheets wb) i) as [s|] eqn:En; [|rewrite upd_nth_none by exact En; exact U].
    apply nth_error_split in En as (l1 & l2 & El & <-). rewrite El in *.
    rewrite remove_nth_app in Eo. rewrite upd_nth_app. rewrite map_app in *. cbn [map ws_uname] in *.
    apply (NoDup_Add (Add_app uname _ _)). split; [eapply NoDup_remove_1; exact U|].
    rewrite <- (existsb_eqb_In text_eqb text_eqb_eq), Eo. discriminate.
Qed.

(* delete: the sheet goes, with the defined names scoped to it *)
Lemma step_delete_sheet_wf i : wf_workbook_b (step down up wb (OpDeleteSheet i)) = true.
Proof.
  cbn [step]. destruct (nth_error (wb_sheets wb) i) as [s|] eqn:En; [|exact H].
  destruct (Nat.leb (length (wb_sheets wb)) 1); [exact H|].
  apply nth_error_split in En as (l1 & l2 & El & <-).
  apply wf_iff in H as (S & U & I & X & D). apply wf_iff.
  unfold xfs_ok_b, dnames_ok_b in *. cbn [wb_sheets wb_nstrings wb_pools wb_names]. rewrite El in *.
  rewrite remove_nth_app, !map_app in *. cbn [map] in *. rewrite forallb_app in *. cbn [forallb] in S.
  apply andb_true_iff in S as (S1 & S2). apply andb_true_iff in S2 as (_ & S2).
  repeat split; try assumption.
  - rewrite S1, S2. reflexivity.
  - eapply NoDup_remove_1; exact U.
  - eapply NoDup_remove_1; exact I.
  - apply forallb_forall. intros o Ho. apply filter_In in Ho as (Ho & Hk).
    rewrite forallb_forall in D. specialize (D o Ho). destruct o as [j|]; [|reflexivity]. cbn [name_ok_b] in *.
    apply (existsb_eqb_In Z.eqb Z.eqb_eq) in D. apply (existsb_eqb_In Z.eqb Z.eqb_eq).
    apply negb_true_iff, Z.eqb_neq in Hk. rewrite in_app_iff in *. cbn [In] in D.
    destruct D as [D|[D|D]]; [left; exact D | congruence | right; exact D].
Qed.

End Step.

Theorem step_wf wb o : wf_workbook_b wb = true -> wf_workbook_b (step down up wb o) = true.
Proof.
  intro H.
  destruct o; [apply step_col_wf | apply step_row_touch_wf | apply step_row_drop_wf | apply step_style_wf |
               apply step_string_wf | apply step_new_sheet_wf | apply step_rename_wf | apply step_delete_sheet_wf];
    exact H.
Qed.

Theorem reachable_wf ops : wf_workbook_b (run down up ops) = true.
Proof.
  unfold run. generalize init init_wf.
  induction ops as [|o r IH]; intros wb H; cbn [fold_left]; [exact H|]. apply IH. apply step_wf. exact H.
Qed.
End Preservation.

(* ---- spill bookkeeping: the spill clause of one sheet is kept by the C31 operations --------------- *)
Lemma spill_clauses (dflt : pos -> Z) (sh sh' : vsheet) :
  (spill_inv sh -> full sh -> spill_inv sh' /\ full sh') ->
  spill_exact_b sh = true -> spill_full_b sh = true -> spill_exact_b sh' = true /\ spill_full_b sh' = true.
Proof.
  intros Hinv H1 H2. apply (spill_exact_b_sound dflt) in H1. apply spill_full_b_sound in H2.
  destruct (Hinv H1 H2) as [I F].
  split; [apply (spill_exact_b_complete dflt); exact I | apply spill_full_b_complete; exact F].
Qed.

Theorem spill_clause_eval (spill_err calc_err : option Z) dflt (sh sh' : vsheet) a res :
  spill_exact_b sh = true -> spill_full_b sh = true ->
  eval_anchor spill_err calc_err dflt a res sh = Ok sh' -> spill_exact_b sh' = true /\ spill_full_b sh' = true.
Proof.
  intros H1 H2 E. apply (spill_clauses dflt sh); [|exact H1 | exact H2].
  intros I F. exact (eval_anchor_inv spill_err calc_err dflt sh sh' a res I F E).
Qed.

Theorem spill_clause_reset (uneval : option Z) dflt (sh : vsheet) order :
  NoDup order -> spill_exact_b sh = true -> spill_full_b sh = true ->
  spill_exact_b (reset_spills uneval dflt order sh) = true /\ spill_full_b (reset_spills uneval dflt order sh) = true.
Proof. intros Hnd. apply (spill_clauses dflt sh). exact (reset_spills_inv uneval dflt sh order Hnd). Qed.

Theorem spill_clause_prepare (uneval : option Z) dflt (sh sh' : vsheet) p :
  spill_exact_b sh = true -> spill_full_b sh = true ->
  prepare_for_input uneval dflt p sh = Ok sh' -> spill_exact_b sh' = true /\ spill_full_b sh' = true.
Proof.
  intros H1 H2 E. apply (spill_clauses dflt sh); [|exact H1 | exact H2].
  intros I F. exact (prepare_inv uneval dflt sh sh' p I F E).
Qed.

(* ---- delete_columns / insert_columns: the descriptor surgery keeps the layout well-formed ----------- *)
Lemma wf_from_weaken lo lo' cs : lo <= lo' -> Cols.wf_from lo' cs -> Cols.wf_from lo cs.
Proof. destruct cs as [|c r]; cbn [Cols.wf_from]; [auto|]. intros H [H1 H2]. split; [lia | exact H2]. Qed.

(* where column x ends up when the band [start, start+count-1] is deleted (deleted columns collapse
   onto start-1) *)
Definition dshift (start count x : Z) : Z :=
  if x <? start then x else if x <=? start + count - 1 then start - 1 else x - count.

Lemma del_descr_spec start count lo c :
  1 <= count -> lo < Cols.c_min c -> Cols.c_min c <= Cols.c_max c ->
  dshift start count lo <= dshift start count (Cols.c_max c) /\ dshift start count (Cols.c_max c) <= Cols.c_max c /\
  match del_descr start count c with
  | Some c' => dshift start count lo < Cols.c_min c' /\ Cols.c_min c' <= Cols.c_max c' /\
               Cols.c_max c' = dshift start count (Cols.c_max c)
  | None => True
  end.
Proof.
  intros Hc H1 H2. unfold del_descr, dshift, with_range. cbv zeta.
  ColsProofs.zcases; cbn [Cols.c_min Cols.c_max]; repeat split; lia.
Qed.

Lemma del_descrs_wf start count : 1 <= count ->
  forall cs lo, Cols.wf_from lo cs -> Cols.wf_from (dshift start count lo) (del_descrs start count cs).
Proof.
  intros Hc. induction cs as [|c r IH]; intros lo H; cbn [del_descrs]; [exact I|].
  cbn [Cols.wf_from] in H. destruct H as (H1 & H2 & H3 & H4).
  destruct (del_descr_spec start count lo c Hc H1 H2) as (S1 & S2 & S3).
  specialize (IH _ H4).
  destruct (del_descr start count c) as [c'|].
  - destruct S3 as (A & B & C). cbn [Cols.wf_from]. rewrite C. repeat split; try lia. exact IH.
  - eapply wf_from_weaken; [exact S1 | exact IH].
Qed.

Theorem delete_columns_descrs_wf start count cs cs' :
  Cols.wf cs -> delete_columns_descrs start count cs = Ok cs' -> Cols.wf cs'.
Proof.
  unfold delete_columns_descrs, Cols.wf. intro H. ColsProofs.zcases; try discriminate.
  intro E. injection E as <-. apply (wf_from_weaken 0 (dshift start count 0)).
  - unfold dshift. ColsProofs.zcases; lia.
  - apply del_descrs_wf; [lia | exact H].
Qed.

Definition ishift (column count x : Z) : Z := if x <? column then x else x + count.

Lemma ins_descrs_wf column count : 0 <= count ->
  forall cs lo, Cols.wf_from lo cs ->
  (forall c, In c cs -> column <= Cols.c_max c -> Cols.c_max c + count <= LAST_COLUMN) ->
  Cols.wf_from (ishift column count lo) (map (ins_descr column count) cs).
Proof.
  intros Hc. induction cs as [|c r IH]; intros lo H Hfit; cbn [map]; [exact I|].
  cbn [Cols.wf_from] in H. destruct H as (H1 & H2 & H3 & H4).
  assert (Hf : column <= Cols.c_max c -> Cols.c_max c + count <= LAST_COLUMN) by (apply Hfit; left; reflexivity).
  assert (IH' := IH _ H4 (fun c0 Hin => Hfit c0 (or_intror Hin))).
  cbn [Cols.wf_from].
  assert (X : Cols.c_max (ins_descr column count c) = ishift column count (Cols.c_max c) /\
              ishift column count lo < Cols.c_min (ins_descr column count c) /\
              Cols.c_min (ins_descr column count c) <= Cols.c_max (ins_descr column count c) /\
              ishift column count (Cols.c_max c) <= LAST_COLUMN).
  { unfold ins_descr, ishift, with_range. ColsProofs.zcases; cbn [Cols.c_min Cols.c_max]; repeat split; lia. }
  destruct X as (X1 & X2 & X3 & X4). rewrite X1. repeat split; try lia. exact IH'.
Qed.

(* insert_columns checks the cells' dimension only: descriptors whose shifted end stays on the grid
   keep the layout well-formed ... *)
Theorem insert_columns_descrs_partial column count cs cs' :
  Cols.wf cs ->
  (forall c, In c cs -> column <= Cols.c_max c -> Cols.c_max c + count <= LAST_COLUMN) ->
  insert_columns_descrs column count cs = Ok cs' -> Cols.wf cs'.
Proof.
  unfold insert_columns_descrs, Cols.wf. intros H Hfit. ColsProofs.zcases; try discriminate.
  intro E. injection E as <-. apply (wf_from_weaken 0 (ishift column count 0)).
  - unfold ishift. ColsProofs.zcases; lia.
  - apply ins_descrs_wf; [lia | exact H | exact Hfit].
Qed.

(* a call with an index outside the grid is refused (3e01966) *)
Theorem insert_columns_descrs_refused column count cs :
  column < 1 \/ LAST_COLUMN < column \/ count <= 0 -> insert_columns_descrs column count cs = Err.
Proof. intros H. unfold insert_columns_descrs. ColsProofs.zcases; reflexivity. Qed.

(* ... and a descriptor on the last column is pushed off the grid *)
Theorem insert_columns_descrs_refuted :
  exists cs column count cs', Cols.wf_b cs = true /\ insert_columns_descrs column count cs = Ok cs' /\ Cols.wf_b cs' = false.
Proof.
  exists [Cols.mkCol 16384 16384 50 true false None], 1, 1, [Cols.mkCol 16385 16385 50 true false None].
  vm_compute. repeat split; reflexivity.
Qed.
