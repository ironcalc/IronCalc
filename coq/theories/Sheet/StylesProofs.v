(* Sheet/StylesProofs.v — interning a style reads back the same style, never changes what an
   existing index resolves to, and hands out different indices for different styles. *)
From IronCalc Require Import Base.Prelude Generated.NumFmts_c30 Sheet.Styles.

(* ---- lists indexed by Z ---------------------------------------------------------------------- *)
Lemma len_cons {A} (x : A) l : len (x :: l) = len l + 1.
Proof. unfold len. cbn [length]. lia. Qed.

Lemma len_nonneg {A} (l : list A) : 0 <= len l.
Proof. unfold len. lia. Qed.

Lemma len_app {A} (l e : list A) : len (l ++ e) = len l + len e.
Proof. unfold len. rewrite app_length. lia. Qed.

(* [znth] is [nth_error] on the non-negative indices *)
Lemma znth_nth_error {A} (l : list A) i :
  znth l i = if i <? 0 then None else nth_error l (Z.to_nat i).
Proof.
  revert i; induction l as [|x r IH]; intro i; cbn [znth].
  - destruct (i <? 0), (Z.to_nat i); reflexivity.
  - destruct (Z.eqb_spec i 0) as [->|Hi]; [reflexivity|]. destruct (Z.ltb_spec i 0); [reflexivity|].
    rewrite IH. destruct (Z.ltb_spec (i - 1) 0); [lia|].
    replace (Z.to_nat i) with (S (Z.to_nat (i - 1))) by lia. reflexivity.
Qed.

Lemma znth_some_range {A} (l : list A) i x : znth l i = Some x -> 0 <= i < len l.
Proof.
  rewrite znth_nth_error. destruct (Z.ltb_spec i 0); [discriminate|]. intro Hx.
  assert (Hn : nth_error l (Z.to_nat i) <> None) by congruence. apply nth_error_Some in Hn. unfold len. lia.
Qed.

Lemma znth_in_range {A} (l : list A) i : 0 <= i < len l -> exists x, znth l i = Some x.
Proof.
  unfold len. intro H. rewrite znth_nth_error. destruct (Z.ltb_spec i 0); [lia|].
  destruct (nth_error l (Z.to_nat i)) eqn:E; [eexists; reflexivity|]. apply nth_error_None in E. lia.
Qed.

Lemma znth_app_range {A} (l e : list A) i : 0 <= i < len l -> znth (l ++ e) i = znth l i.
Proof.
  unfold len. intro H. rewrite !znth_nth_error. destruct (i <? 0); [reflexivity|]. apply nth_error_app1. lia.
Qed.

Lemma znth_last {A} (l : list A) x : znth (l ++ [x]) (len l) = Some x.
Proof.
  unfold len. rewrite znth_nth_error. destruct (Z.ltb_spec (Z.of_nat (length l)) 0); [lia|].
  rewrite Nat2Z.id, nth_error_app2, Nat.sub_diag by lia. reflexivity.
Qed.

Lemma znth_In {A} (l : list A) i x : znth l i = Some x -> In x l.
Proof. rewrite znth_nth_error. destruct (i <? 0); [discriminate | apply nth_error_In]. Qed.

Lemma znth_cons_pos {A} (x : A) r i : 0 < i -> znth (x :: r) i = znth r (i - 1).
Proof. intro H. cbn [znth]. destruct (Z.eqb_spec i 0), (Z.ltb_spec i 0); try lia. reflexivity. Qed.

Lemma index_from_sound {A} (eqb : A -> A -> bool) i x l k :
  (forall a b, eqb a b = true -> a = b) ->
  index_from eqb i x l = Some k -> znth l (k - i) = Some x /\ i <= k < i + len l.
Proof.
  intro Heq. revert i; induction l as [|y r IH]; intros i H; cbn [index_from] in H; [discriminate|].
  rewrite len_cons. pose proof (len_nonneg r).
  destruct (eqb y x) eqn:E.
  - injection H as <-. apply Heq in E. subst y. rewrite Z.sub_diag. split; [reflexivity | lia].
  - apply IH in H as (H1 & H2). rewrite znth_cons_pos by lia.
    replace (k - i - 1) with (k - (i + 1)) by lia. split; [exact H1 | lia].
Qed.

Lemma find_or_push_spec {A} (eqb : A -> A -> bool) x l l' i :
  (forall a b, eqb a b = true -> a = b) ->
  find_or_push eqb x l = (l', i) ->
  znth l' i = Some x /\ (exists e, l' = l ++ e) /\ 0 <= i < len l'.
Proof.
  intros Heq H. unfold find_or_push, index_of in H.
  destruct (index_from eqb 0 x l) as [k|] eqn:E.
  - injection H as <- <-. apply (index_from_sound eqb 0 x l k Heq) in E as (H1 & H2).
    replace (k - 0) with k in H1 by lia.
    split; [exact H1 | split; [exists []; rewrite app_nil_r; reflexivity | lia]].
  - injection H as <- <-. pose proof (len_nonneg l).
    split; [apply znth_last | split; [eexists; reflexivity|]].
    rewrite len_app. change (len [x]) with 1. lia.
Qed.

(* ---- number formats ------------------------------------------------------------------------------ *)
Definition ids (nfs : list num_fmt) : list Z := map nf_id nfs.

Lemma find_nf_by_id_some id nfs c :
  find_nf_by_id id nfs = Some c -> exists nf, In nf nfs /\ nf_id nf = id /\ nf_code nf = c.
Proof.
  induction nfs as [|nf r IH]; cbn [find_nf_by_id]; [discriminate|].
  destruct (nf_id nf =? id) eqn:E.
  - intro H. injection H as <-. apply Z.eqb_eq in E. exists nf. repeat split; [left; reflexivity | exact E].
  - intro H. destruct (IH H) as (x & H1 & H2). exists x. split; [right; exact H1 | exact H2].
Qed.

Lemma find_nf_by_id_none id nfs : find_nf_by_id id nfs = None <-> ~ In id (ids nfs).
Proof.
  induction nfs as [|nf r IH]; cbn [find_nf_by_id ids map In]; [tauto|].
  destruct (nf_id nf =? id) eqn:E.
  - apply Z.eqb_eq in E. split; [discriminate | intro H; exfalso; apply H; left; exact E].
  - apply Z.eqb_neq in E. fold (ids r). rewrite IH. tauto.
Qed.

Lemma find_nf_by_id_app id nfs e :
  find_nf_by_id id (nfs ++ e) =
  match find_nf_by_id id nfs with Some c => Some c | None => find_nf_by_id id e end.
Proof.
  induction nfs as [|nf r IH]; cbn [find_nf_by_id app]; [reflexivity|].
  destruct (nf_id nf =? id); [reflexivity | exact IH].
Qed.

Lemma find_nf_by_id_In nfs nf :
  NoDup (ids nfs) -> In nf nfs -> find_nf_by_id (nf_id nf) nfs = Some (nf_code nf).
Proof.
  induction nfs as [|x r IH]; cbn [ids map In find_nf_by_id]; [tauto|].
  intros Hnd [->|Hin].
  - rewrite Z.eqb_refl. reflexivity.
  - inversion Hnd as [|? ? Hx Hr]; subst.
    destruct (nf_id x =? nf_id nf) eqn:E.
    + apply Z.eqb_eq in E. exfalso. apply Hx. rewrite E. apply in_map. exact Hin.
    + apply IH; assumption.
Qed.

Lemma find_nf_by_code_sound code nfs id :
  find_nf_by_code code nfs = Some id -> exists nf, In nf nfs /\ nf_id nf = id /\ nf_code nf = code.
Proof.
  induction nfs as [|nf r IH]; cbn [find_nf_by_code]; [discriminate|].
  destruct (text_eqb (nf_code nf) code) eqn:E.
  - intro H. injection H as <-. apply text_eqb_eq in E. exists nf. repeat split; [left; reflexivity | exact E].
  - intro H. destruct (IH H) as (x & H1 & H2). exists x. split; [right; exact H1 | exact H2].
Qed.

Lemma id_used_iff id nfs : id_used id nfs = true <-> In id (ids nfs).
Proof.
  unfold id_used, ids. rewrite existsb_exists. split.
  - intros (nf & H1 & H2). apply Z.eqb_eq in H2. subst id. apply in_map. exact H1.
  - intro H. apply in_map_iff in H as (nf & H1 & H2). exists nf. split; [exact H2 | apply Z.eqb_eq; exact H1].
Qed.

(* how many formats have an id >= index *)
Definition cnt (index : Z) (nfs : list num_fmt) : nat :=
  length (filter (fun nf => index <=? nf_id nf) nfs).

(* an id in use is counted from [index] and not from [index + 1] *)
Lemma cnt_step index nfs :
  (cnt (index + 1) nfs + (if id_used index nfs then 1 else 0) <= cnt index nfs)%nat.
Proof.
  unfold cnt, id_used. induction nfs as [|nf r IH]; cbn [filter existsb length]; [lia|].
  destruct (existsb (fun nf => nf_id nf =? index) r);
    destruct (Z.eqb_spec (nf_id nf) index), (Z.leb_spec (index + 1) (nf_id nf)), (Z.leb_spec index (nf_id nf));
    cbn [orb length]; lia.
Qed.

Lemma fresh_id_ge fuel index nfs : index <= fresh_id fuel index nfs.
Proof.
  revert index; induction fuel as [|f IH]; intro index; cbn [fresh_id]; [lia|].
  destruct (id_used index nfs); [specialize (IH (index + 1)); lia | lia].
Qed.

Lemma fresh_id_unused fuel index nfs :
  (cnt index nfs < fuel)%nat -> id_used (fresh_id fuel index nfs) nfs = false.
Proof.
  revert index; induction fuel as [|f IH]; intros index H; [lia|].
  cbn [fresh_id]. pose proof (cnt_step index nfs) as Hs. destruct (id_used index nfs) eqn:E; [|exact E].
  apply IH. lia.
Qed.

Lemma filter_len_le {A} (f : A -> bool) l : (length (filter f l) <= length l)%nat.
Proof. induction l as [|x r IH]; cbn [filter length]; [lia|]. destruct (f x); cbn [length]; lia. Qed.

(* FRESH IDS: the id handed out for a new format is beyond the built-ins and unused *)
Theorem new_num_fmt_index_fresh nfs :
  NBUILTIN <= get_new_num_fmt_index nfs /\ ~ In (get_new_num_fmt_index nfs) (ids nfs).
Proof.
  unfold get_new_num_fmt_index. split; [apply fresh_id_ge|].
  rewrite <- id_used_iff. rewrite fresh_id_unused; [discriminate|].
  unfold cnt. pose proof (filter_len_le (fun nf => NBUILTIN <=? nf_id nf) nfs). lia.
Qed.

Lemma default_id_sound code i :
  get_default_num_fmt_id code = Some i -> znth DEFAULT_NUM_FMTS i = Some code /\ 0 <= i < NBUILTIN.
Proof.
  unfold get_default_num_fmt_id, index_of. intro H.
  apply (index_from_sound text_eqb 0 code DEFAULT_NUM_FMTS i) in H as (H1 & H2).
  - replace (i - 0) with i in H1 by lia. split; [exact H1 | unfold NBUILTIN; lia].
  - intros a b E. apply text_eqb_eq. exact E.
Qed.

(* what nf_find_or_push guarantees on well-formed format lists *)
Lemma nf_find_or_push_spec code nfs nfs' id :
  nfs_ok nfs -> nf_find_or_push code nfs = (nfs', id) ->
  get_num_fmt id nfs' = Ok code /\ nfs_ok nfs' /\ 0 <= id /\
  (NBUILTIN <= id -> In id (ids nfs')) /\
  (exists e, nfs' = nfs ++ e /\ forall nf, In nf e -> NBUILTIN <= nf_id nf /\ ~ In (nf_id nf) (ids nfs)).
Proof.
  intros (Hnd & Hsh) H. unfold nf_find_or_push, get_num_fmt_index in H.
  assert (Hext0 : exists e : list num_fmt, nfs = nfs ++ e /\
            forall nf, In nf e -> NBUILTIN <= nf_id nf /\ ~ In (nf_id nf) (ids nfs))
    by (exists []; rewrite app_nil_r; split; [reflexivity | intros ? []]).
  destruct (get_default_num_fmt_id code) as [i|] eqn:Ed.
  - (* a built-in code *)
    injection H as <- <-. apply default_id_sound in Ed as (Hz & Hr).
    repeat split; try assumption; try lia.
    unfold get_num_fmt. destruct (find_nf_by_id i nfs) as [c|] eqn:Ef.
    + apply find_nf_by_id_some in Ef as (nf & Hin & Hid & Hc).
      specialize (Hsh nf Hin ltac:(lia)). rewrite Hid, Hz in Hsh. congruence.
    + assert (i <? NBUILTIN = true) as -> by (apply Z.ltb_lt; lia). rewrite Hz. reflexivity.
  - destruct (find_nf_by_code code nfs) as [j|] eqn:Ec.
    + (* a format the workbook already defines *)
      injection H as <- <-. apply find_nf_by_code_sound in Ec as (nf & Hin & Hid & Hc).
      assert (Hj : In j (ids nfs)) by (rewrite <- Hid; apply in_map; exact Hin).
      repeat split; try assumption.
      * unfold get_num_fmt. rewrite <- Hid, (find_nf_by_id_In nfs nf Hnd Hin), Hc. reflexivity.
      * destruct (Z.lt_ge_cases j NBUILTIN) as [Hlt|Hge].
        -- rewrite <- Hid in Hlt. specialize (Hsh nf Hin Hlt). apply znth_some_range in Hsh. lia.
        -- pose proof (len_nonneg DEFAULT_NUM_FMTS). unfold NBUILTIN in Hge. lia.
      * intros _. exact Hj.
    + (* a new format with a fresh id *)
      injection H as <- <-. destruct (new_num_fmt_index_fresh nfs) as (Hge & Hfr).
      set (i := get_new_num_fmt_index nfs) in *.
      pose proof (len_nonneg DEFAULT_NUM_FMTS) as Hl. fold NBUILTIN in Hl.
      split; [|split; [|split; [|split]]].
      * unfold get_num_fmt. rewrite find_nf_by_id_app.
        apply find_nf_by_id_none in Hfr. rewrite Hfr. cbn [find_nf_by_id nf_id nf_code].
        rewrite Z.eqb_refl. reflexivity.
      * split.
        -- unfold ids in *. rewrite map_app. cbn [map nf_id].
           apply (NoDup_Add (Add_app i _ [])). rewrite app_nil_r. split; assumption.
        -- intros nf Hin Hlt. apply in_app_iff in Hin as [Hin|[<-|[]]]; [apply Hsh; assumption|].
           cbn [nf_id] in Hlt. lia.
      * lia.
      * intros _. unfold ids. rewrite map_app, in_app_iff. right. left. reflexivity.
      * eexists. split; [reflexivity|]. intros nf [<-|[]]. cbn [nf_id]. split; assumption.
Qed.

(* ---- BUILT-IN FORMATS: every code of the regenerated table is stored as a built-in id that
   reads back as the same code (the lookup returns the FIRST match: ids 23-36 are all "general") -- *)
Theorem builtin_formats_roundtrip :
  forall code, In code DEFAULT_NUM_FMTS ->
  exists i, get_default_num_fmt_id code = Some i /\ get_num_fmt i [] = Ok code.
Proof.
  assert (H : forallb (fun code =>
            match get_default_num_fmt_id code with
            | Some i => match get_num_fmt i [] with Ok c => text_eqb c code | _ => false end
            | None => false
            end) DEFAULT_NUM_FMTS = true) by (vm_compute; reflexivity).
  rewrite forallb_forall in H. intros code Hin. specialize (H code Hin).
  destruct (get_default_num_fmt_id code) as [i|]; [|discriminate]. exists i. split; [reflexivity|].
  destruct (get_num_fmt i []) as [c| |]; try discriminate. apply text_eqb_eq in H. congruence.
Qed.

(* every built-in id resolves (no panic) and resolves to a code that maps back to an id with the same code *)
Theorem builtin_ids_roundtrip :
  forall i, 0 <= i < NBUILTIN ->
  exists code j, get_num_fmt i [] = Ok code /\ get_default_num_fmt_id code = Some j /\ get_num_fmt j [] = Ok code.
Proof.
  intros i Hi. unfold get_num_fmt at 1. cbn [find_nf_by_id].
  assert (i <? NBUILTIN = true) as -> by (apply Z.ltb_lt; lia).
  destruct (znth_in_range DEFAULT_NUM_FMTS i Hi) as (code & Hc). rewrite Hc.
  destruct (builtin_formats_roundtrip code (znth_In _ _ _ Hc)) as (j & H1 & H2).
  exists code, j. repeat split; assumption.
Qed.

(* the table regenerated from the code is not empty (DEFAULT_NUM_FMTS[0] does not panic) *)
Lemma default_table_nonempty : exists c, znth DEFAULT_NUM_FMTS 0 = Some c.
Proof. vm_compute. eexists. reflexivity. Qed.

Section Proofs.
Context {font fill border align : Type}.
Context {font_eqb : font -> font -> bool} {fill_eqb : fill -> fill -> bool}
        {border_eqb : border -> border -> bool} {align_eqb : align -> align -> bool}.
(* soundness of Rust's derived PartialEq on the component types *)
Hypothesis font_eqb_eq : forall a b, font_eqb a b = true -> a = b.
Hypothesis fill_eqb_eq : forall a b, fill_eqb a b = true -> a = b.
Hypothesis border_eqb_eq : forall a b, border_eqb a b = true -> a = b.
Hypothesis align_eqb_eq : forall a b, align_eqb a b = true -> a = b.

Notation style := (style font fill border align).
Notation styles := (styles font fill border align).
Notation xf := (xf align).
Notation style_eqb := (style_eqb font_eqb fill_eqb border_eqb align_eqb).
Notation gsi_loop := (gsi_loop font_eqb fill_eqb border_eqb align_eqb).
Notation get_style_index := (get_style_index font_eqb fill_eqb border_eqb align_eqb).
Notation create_new_style := (create_new_style font_eqb fill_eqb border_eqb).
Notation intern := (intern font_eqb fill_eqb border_eqb align_eqb).
Notation intern_all := (intern_all font_eqb fill_eqb border_eqb align_eqb).

Lemma style_eqb_eq (a b : style) : style_eqb a b = true -> a = b.
Proof.
  destruct a as [a1 a2 a3 a4 a5 a6], b as [b1 b2 b3 b4 b5 b6]. unfold Styles.style_eqb.
  cbn [s_align s_num_fmt s_fill s_font s_border s_quote]. intro H.
  repeat (apply andb_true_iff in H as (H & ?)).
  f_equal.
  - destruct a1 as [x|], b1 as [y|]; cbn [oalign_eqb] in H; try discriminate; [|reflexivity].
    apply align_eqb_eq in H. congruence.
  - apply text_eqb_eq. assumption.
  - apply fill_eqb_eq. assumption.
  - apply font_eqb_eq. assumption.
  - apply border_eqb_eq. assumption.
  - apply Bool.eqb_prop. assumption.
Qed.

(* ---- resolving a well-formed record never panics and is unaffected by growth ------------------ *)
Lemma get_num_fmt_ok id nfs :
  0 <= id -> exists c, get_num_fmt id nfs = Ok c.
Proof.
  intro H0. unfold get_num_fmt. destruct (find_nf_by_id id nfs) as [c|]; [eexists; reflexivity|].
  destruct (id <? NBUILTIN) eqn:E.
  - apply Z.ltb_lt in E. unfold NBUILTIN in E.
    assert (Hr : 0 <= id < len DEFAULT_NUM_FMTS) by lia.
    destruct (znth_in_range DEFAULT_NUM_FMTS id Hr) as (c & ->). eexists; reflexivity.
  - destruct default_table_nonempty as (c & ->). eexists; reflexivity.
Qed.

Lemma resolve_ok (st : styles) (x : xf) : xf_ok st x -> exists s, resolve st x = Ok s.
Proof.
  intros (H1 & H2 & H3 & H4 & _). unfold resolve.
  destruct (get_num_fmt_ok (x_num_fmt_id x) (st_num_fmts st) H4) as (c & ->).
  destruct (znth_in_range _ _ H2) as (fi & ->). destruct (znth_in_range _ _ H1) as (fo & ->).
  destruct (znth_in_range _ _ H3) as (bo & ->). eexists; reflexivity.
Qed.

(* [grows st st']: pools are extended at the end; new formats have fresh ids beyond the built-ins *)
Definition grows (st st' : styles) : Prop :=
  (exists e, st_num_fmts st' = st_num_fmts st ++ e /\
             forall nf, In nf e -> NBUILTIN <= nf_id nf /\ ~ In (nf_id nf) (ids (st_num_fmts st))) /\
  (exists e, st_fonts st' = st_fonts st ++ e) /\ (exists e, st_fills st' = st_fills st ++ e) /\
  (exists e, st_borders st' = st_borders st ++ e) /\ (exists e, st_xfs st' = st_xfs st ++ e).

Lemma find_nf_by_id_fresh id e :
  (forall nf, In nf e -> nf_id nf <> id) -> find_nf_by_id id e = None.
Proof.
  intro H. apply find_nf_by_id_none. unfold ids. intro Hin. apply in_map_iff in Hin as (nf & H1 & H2).
  exact (H nf H2 H1).
Qed.

Lemma resolve_grows (st st' : styles) (x : xf) :
  xf_ok st x -> grows st st' -> resolve st' x = resolve st x.
Proof.
  intros (H1 & H2 & H3 & H4 & H5) ((e & En & Hfr) & (e1 & E1) & (e2 & E2) & (e3 & E3) & _).
  unfold resolve. rewrite En, E1, E2, E3.
  rewrite !znth_app_range by assumption.
  replace (get_num_fmt (x_num_fmt_id x) (st_num_fmts st ++ e))
    with (get_num_fmt (x_num_fmt_id x) (st_num_fmts st)); [reflexivity|].
  unfold get_num_fmt. rewrite find_nf_by_id_app.
  destruct (find_nf_by_id (x_num_fmt_id x) (st_num_fmts st)) as [c|] eqn:Ef; [reflexivity|].
  rewrite find_nf_by_id_fresh; [reflexivity|].
  intros nf Hin Heq. destruct (Hfr nf Hin) as (Hge & Hnot).
  apply find_nf_by_id_none in Ef. apply Ef. apply H5. lia.
Qed.

Lemma xf_ok_grows (st st' : styles) (x : xf) : xf_ok st x -> grows st st' -> xf_ok st' x.
Proof.
  intros (H1 & H2 & H3 & H4 & H5) ((e & En & _) & (e1 & E1) & (e2 & E2) & (e3 & E3) & _).
  unfold xf_ok. rewrite En, E1, E2, E3, !len_app.
  pose proof (len_nonneg e1). pose proof (len_nonneg e2). pose proof (len_nonneg e3).
  repeat split; try lia. intro Hge. unfold ids in *. rewrite map_app, in_app_iff. left. apply H5. exact Hge.
Qed.

(* ---- get_style_index ------------------------------------------------------------------------------ *)
Lemma gsi_loop_found (st : styles) (s : style) i xs k :
  gsi_loop st s i xs = Ok (Some k) ->
  exists x, znth xs (k - i) = Some x /\ resolve st x = Ok s /\ i <= k.
Proof.
  revert i; induction xs as [|x r IH]; intros i H; cbn [Styles.gsi_loop] in H; [discriminate|].
  assert (Hrec : Styles.gsi_loop font_eqb fill_eqb border_eqb align_eqb st s (i + 1) r = Ok (Some k) ->
                 exists x0, znth (x :: r) (k - i) = Some x0 /\ resolve st x0 = Ok s /\ i <= k).
  { intro H'. apply IH in H' as (x0 & G1 & G2 & G3). exists x0. rewrite znth_cons_pos by lia.
    replace (k - i - 1) with (k - (i + 1)) by lia. repeat split; [exact G1 | exact G2 | lia]. }
  destruct (negb (x_xf_id x =? 0)); [exact (Hrec H)|].
  destruct (resolve st x) as [s'| |] eqn:Er; try discriminate.
  destruct (style_eqb s s') eqn:Ee; [|exact (Hrec H)].
  injection H as <-. apply style_eqb_eq in Ee. subst s'.
  exists x. rewrite Z.sub_diag. repeat split; [exact Er | lia].
Qed.

Lemma gsi_loop_total (st : styles) (s : style) i xs :
  Forall (xf_ok st) xs -> exists r, gsi_loop st s i xs = Ok r.
Proof.
  revert i; induction xs as [|x r IH]; intros i Hok; cbn [Styles.gsi_loop]; [eexists; reflexivity|].
  inversion Hok as [|? ? Hx Hr]; subst.
  destruct (negb (x_xf_id x =? 0)); [apply IH; exact Hr|].
  destruct (resolve_ok st x Hx) as (s' & ->).
  destruct (style_eqb s s'); [eexists; reflexivity | apply IH; exact Hr].
Qed.

(* ---- create_new_style ------------------------------------------------------------------------------ *)
Lemma create_new_style_spec (st : styles) (s : style) st' i :
  wf_styles st -> create_new_style st s = (st', i) ->
  wf_styles st' /\ grows st st' /\ get_style st' i = Ok s /\ i = len (st_xfs st) /\
  len (st_xfs st') = len (st_xfs st) + 1.
Proof.
  intros (Hnf & Hxs) H. unfold Styles.create_new_style in H.
  destruct (find_or_push font_eqb (s_font s) (st_fonts st)) as (fonts & font_id) eqn:Efo.
  destruct (find_or_push fill_eqb (s_fill s) (st_fills st)) as (fills & fill_id) eqn:Efi.
  destruct (find_or_push border_eqb (s_border s) (st_borders st)) as (borders & border_id) eqn:Ebo.
  destruct (nf_find_or_push (s_num_fmt s) (st_num_fmts st)) as (nfs & num_fmt_id) eqn:Enf.
  injection H as <- <-.
  apply (find_or_push_spec font_eqb _ _ _ _ font_eqb_eq) in Efo as (Fo1 & Fo2 & Fo3).
  apply (find_or_push_spec fill_eqb _ _ _ _ fill_eqb_eq) in Efi as (Fi1 & Fi2 & Fi3).
  apply (find_or_push_spec border_eqb _ _ _ _ border_eqb_eq) in Ebo as (Bo1 & Bo2 & Bo3).
  apply (nf_find_or_push_spec _ _ _ _ Hnf) in Enf as (N1 & N2 & N3 & N4 & N5).
  set (nx := mkXf 0 num_fmt_id font_id fill_id border_id 0 (s_quote s) (s_align s)).
  set (st' := mkStyles nfs fonts fills borders (st_xfs st ++ [nx])).
  assert (Hg : grows st st').
  { unfold grows, st'. cbn [st_num_fmts st_fonts st_fills st_borders st_xfs].
    repeat split; try assumption. eexists; reflexivity. }
  assert (Hnx : xf_ok st' nx).
  { unfold xf_ok, st', nx. cbn [st_num_fmts st_fonts st_fills st_borders x_font_id x_fill_id x_border_id x_num_fmt_id].
    repeat split; try lia. exact N4. }
  split; [|split; [exact Hg|split; [|split; [reflexivity|]]]].
  - split; [exact N2|]. unfold st' at 2. cbn [st_xfs]. apply Forall_app. split.
    + eapply Forall_impl; [|exact Hxs]. intros x Hx. eapply xf_ok_grows; eassumption.
    + constructor; [exact Hnx | constructor].
  - unfold get_style. unfold st' at 1. cbn [st_xfs]. rewrite znth_last.
    unfold resolve, st', nx. cbn [st_num_fmts st_fonts st_fills st_borders x_font_id x_fill_id x_border_id x_num_fmt_id x_align x_quote].
    rewrite N1, Fi1, Fo1, Bo1. destruct s; reflexivity.
  - unfold st'. cbn [st_xfs]. rewrite len_app. change (len [nx]) with 1. lia.
Qed.

(* ---- one assignment ---------------------------------------------------------------------------------- *)
Theorem intern_total (st : styles) (s : style) : wf_styles st -> exists r, intern st s = Ok r.
Proof.
  intros (_ & Hxs). unfold Styles.intern, Styles.get_style_index.
  destruct (gsi_loop_total st s 0 (st_xfs st) Hxs) as ([k|] & ->); eexists; reflexivity.
Qed.

Theorem intern_spec (st : styles) (s : style) st' i :
  wf_styles st -> intern st s = Ok (st', i) ->
  wf_styles st' /\ grows st st' /\ get_style st' i = Ok s /\
  len (st_xfs st) <= len (st_xfs st') /\ 0 <= i < len (st_xfs st').
Proof.
  intros Hwf H. unfold Styles.intern, Styles.get_style_index in H.
  destruct (gsi_loop st s 0 (st_xfs st)) as [[k|]| |] eqn:Eg; try discriminate.
  - (* an existing index *)
    injection H as <- <-. apply gsi_loop_found in Eg as (x & G1 & G2 & G3).
    replace (k - 0) with k in G1 by lia.
    split; [exact Hwf|]. split.
    { unfold grows. repeat split; try (exists []; rewrite app_nil_r; reflexivity).
      exists []. rewrite app_nil_r. split; [reflexivity | intros ? []]. }
    split; [unfold get_style; rewrite G1; exact G2|].
    split; [lia | eapply znth_some_range; exact G1].
  - (* a new record *)
    injection H as H. apply (create_new_style_spec st s st' i Hwf) in H as (H1 & H2 & H3 & H4 & H5).
    pose proof (len_nonneg (st_xfs st)).
    split; [exact H1 | split; [exact H2 | split; [exact H3 | lia]]].
Qed.

(* READ-BACK *)
Theorem intern_readback (st : styles) (s : style) st' i :
  wf_styles st -> intern st s = Ok (st', i) -> get_style st' i = Ok s.
Proof. intros Hwf H. apply (intern_spec st s st' i Hwf) in H as (_ & _ & H & _). exact H. Qed.

Lemma get_style_grows (st st' : styles) k :
  wf_styles st -> grows st st' -> 0 <= k < len (st_xfs st) -> get_style st' k = get_style st k.
Proof.
  intros (_ & Hxs) Hg Hk. pose proof Hg as (_ & _ & _ & _ & (e & Ex)).
  unfold get_style. rewrite Ex, znth_app_range by exact Hk.
  destruct (znth_in_range _ _ Hk) as (x & Hx). rewrite Hx.
  apply resolve_grows; [|exact Hg]. rewrite Forall_forall in Hxs. apply Hxs. eapply znth_In. exact Hx.
Qed.

(* STABILITY: interning never changes what an existing index resolves to; pools only grow *)
Theorem intern_stable (st : styles) (s : style) st' i :
  wf_styles st -> intern st s = Ok (st', i) ->
  (forall k, 0 <= k < len (st_xfs st) -> get_style st' k = get_style st k) /\ extends st st'.
Proof.
  intros Hwf H. apply (intern_spec st s st' i Hwf) in H as (_ & Hg & _).
  split; [intros k Hk; apply get_style_grows; assumption|].
  destruct Hg as ((e & En & _) & G2 & G3 & G4 & G5). unfold extends.
  repeat split; try assumption. exists e. exact En.
Qed.

Theorem intern_wf (st : styles) (s : style) st' i :
  wf_styles st -> intern st s = Ok (st', i) -> wf_styles st'.
Proof. intros Hwf H. apply (intern_spec st s st' i Hwf) in H as (H & _). exact H. Qed.

(* ---- histories ------------------------------------------------------------------------------------------ *)
(* after any history of assignments the old indices resolve as before, and every index handed out
   resolves, in the final pools, to the style it was handed out for *)
Lemma intern_all_spec (st : styles) ss st' is :
  wf_styles st -> intern_all st ss = Ok (st', is) ->
  wf_styles st' /\ len (st_xfs st) <= len (st_xfs st') /\
  (forall k, 0 <= k < len (st_xfs st) -> get_style st' k = get_style st k) /\
  Forall2 (fun s i => get_style st' i = Ok s) ss is.
Proof.
  revert st st' is; induction ss as [|s r IH]; intros st st' is Hwf H; cbn [Styles.intern_all] in H.
  - injection H as <- <-. split; [exact Hwf | split; [lia | split; [reflexivity | constructor]]].
  - destruct (intern st s) as [[st1 i]| |] eqn:E1; try discriminate.
    destruct (Styles.intern_all font_eqb fill_eqb border_eqb align_eqb st1 r) as [[st2 is2]| |] eqn:E2; try discriminate.
    injection H as <- <-.
    pose proof (intern_spec st s st1 i Hwf E1) as (W1 & G1 & R1 & L1 & I1).
    destruct (IH st1 st2 is2 W1 E2) as (W2 & L2 & S2 & F2).
    split; [exact W2 | split; [lia | split]].
    + intros k Hk. rewrite S2 by lia. apply get_style_grows; assumption.
    + constructor; [rewrite S2 by exact I1; exact R1 | exact F2].
Qed.

Theorem intern_all_readback (st : styles) ss st' is :
  wf_styles st -> intern_all st ss = Ok (st', is) ->
  Forall2 (fun s i => get_style st' i = Ok s) ss is.
Proof. intros Hwf H. apply (intern_all_spec st ss st' is Hwf H). Qed.

Theorem intern_all_total (st : styles) ss : wf_styles st -> exists r, intern_all st ss = Ok r.
Proof.
  revert st; induction ss as [|s r IH]; intros st Hwf; cbn [Styles.intern_all]; [eexists; reflexivity|].
  destruct (intern_total st s Hwf) as ((st1 & i) & E1). rewrite E1.
  destruct (IH st1 (intern_wf st s st1 i Hwf E1)) as ((st2 & is2) & ->). eexists; reflexivity.
Qed.

(* NO SHARING: two assignments of different styles anywhere in a history get different indices *)
Theorem no_sharing (st : styles) ss st' is a b sa sb ia ib :
  wf_styles st -> intern_all st ss = Ok (st', is) ->
  nth_error ss a = Some sa -> nth_error is a = Some ia ->
  nth_error ss b = Some sb -> nth_error is b = Some ib ->
  sa <> sb -> ia <> ib.
Proof.
  intros Hwf H Ha Ia Hb Ib Hne Heq. pose proof (intern_all_readback st ss st' is Hwf H) as HF.
  assert (Hget : forall n s i, nth_error ss n = Some s -> nth_error is n = Some i -> get_style st' i = Ok s).
  { clear -HF. induction HF as [|s0 i0 ss0 is0 H0 HF IH]; intros n s i Hs Hi.
    - destruct n; discriminate.
    - destruct n as [|n]; cbn [nth_error] in Hs, Hi.
      + injection Hs as <-. injection Hi as <-. exact H0.
      + eapply IH; eassumption. }
  pose proof (Hget a sa ia Ha Ia) as Ga. pose proof (Hget b sb ib Hb Ib) as Gb.
  subst ib. rewrite Ga in Gb. injection Gb as Gb. contradiction.
Qed.

End Proofs.

(* ---- the pools of a new workbook are well formed (Styles::default) ------------------------------- *)
Lemma nbuiltin_pos : 0 < NBUILTIN.
Proof. destruct default_table_nonempty as (c & H). apply znth_some_range in H. unfold NBUILTIN. lia. Qed.

Theorem default_pools_wf {font fill border align : Type} (f0 : font) (fi0 : fill) (b0 : border) :
  @wf_styles font fill border align (mkStyles [] [f0] [fi0; fi0] [b0] [mkXf 0 0 0 0 0 0 false None]).
Proof.
  split.
  - split; [constructor | intros nf []].
  - constructor; [|constructor]. unfold xf_ok.
    cbn [st_fonts st_fills st_borders st_num_fmts x_font_id x_fill_id x_border_id x_num_fmt_id].
    pose proof nbuiltin_pos. change (len [f0]) with 1. change (len [fi0; fi0]) with 2. change (len [b0]) with 1.
    repeat split; try lia.
Qed.

(* ---- each clause of wf_styles is needed: pools outside it, as an import can produce them ---------- *)
Definition zintern := @intern Z Z Z Z Z.eqb Z.eqb Z.eqb Z.eqb.
Definition zdefault (nfs : list num_fmt) (extra : list (xf Z)) : styles Z Z Z Z :=
  mkStyles nfs [0] [0; 0] [0] (mkXf 0 0 0 0 0 0 false None :: extra).
Definition zstyle (code : text) : style Z Z Z Z := mkStyle None code 0 0 0 false.

(* (a) the workbook defines built-in id 14 with another code: assigning the built-in code of id 14
       stores id 14, which reads back as the workbook's code *)
Lemma shadowed_builtin_refuted :
  exists st s st' i c, st = zdefault [mkNf 14 [100; 100; 47; 109; 109; 47; 121; 121; 121; 121]] [] /\
    znth DEFAULT_NUM_FMTS 14 = Some c /\ s = zstyle c /\
    zintern st s = Ok (st', i) /\ get_style st' i <> Ok s.
Proof.
  eexists _, _, _, _, _. split; [reflexivity|]. split; [vm_compute; reflexivity|]. split; [reflexivity|].
  split; [vm_compute; reflexivity|]. vm_compute. discriminate.
Qed.

(* (b) a record refers to a custom id nobody defines (it reads "general"): the next new format
       takes that id and the old record changes its meaning *)
Lemma dangling_id_refuted :
  exists st s st' i, st = zdefault [] [mkXf 0 NBUILTIN 0 0 0 0 false None] /\ s = zstyle [122; 122] /\
    zintern st s = Ok (st', i) /\ get_style st' 1 <> get_style st 1.
Proof.
  eexists _, _, _, _. split; [reflexivity|]. split; [reflexivity|].
  split; [vm_compute; reflexivity|]. vm_compute. discriminate.
Qed.

(* (c) two workbook formats share an id: the second one cannot be read back *)
Lemma duplicate_id_refuted :
  exists st s st' i, st = zdefault [mkNf 60 [97]; mkNf 60 [98]] [] /\ s = zstyle [98] /\
    zintern st s = Ok (st', i) /\ get_style st' i <> Ok s.
Proof.
  eexists _, _, _, _. split; [reflexivity|]. split; [reflexivity|].
  split; [vm_compute; reflexivity|]. vm_compute. discriminate.
Qed.

(* non-vacuity: a history on the pools of a new workbook; equal styles share, different ones do not *)
Example history_example :
  let st := zdefault [] [] in
  let a := mkStyle None [48; 46; 48; 48] 0 1 0 false in      (* built-in code "0.00", a new font *)
  let b := mkStyle (Some 5) [120] 7 1 0 true in              (* custom code "x", a new fill *)
  match @intern_all Z Z Z Z Z.eqb Z.eqb Z.eqb Z.eqb st [a; b; a; zstyle [103; 101; 110; 101; 114; 97; 108]; b] with
  | Ok (st', is) =>
      is = [1; 2; 1; 0; 2] /\ st_num_fmts st' = [mkNf NBUILTIN [120]] /\ st_fonts st' = [0; 1] /\
      st_fills st' = [0; 0; 7] /\ get_style st' 2 = Ok b
  | _ => False
  end.
Proof. vm_compute. repeat split; reflexivity. Qed.
