(* Eval/EvalProofs.v — the relational ("simulation") lemma of the expression evaluator:
   two runs of [eval_st] whose cell readers agree on the cells the expression mentions, and
   preserve a relation between their states, return the same value and preserve the relation.
   It is used three times: store evaluator vs reference semantics (C05), independence of the
   reference semantics from fuel and from stored values (C05/C07), invariant preservation. *)
From IronCalc Require Import Base.Prelude Eval.NumOps Eval.Value Eval.Coerce Eval.Ops Eval.Funs Eval.Eval.

Section AstInd.
Context {num : Type}.
Notation ast := (ast num).

Definition children (e : ast) : list ast :=
  match e with
  | EUnary _ x | EImplicit x => [x]
  | EBin _ l r | EConcat l r | ECmp _ l r => [l; r]
  | EFun _ args => args
  | _ => []
  end.

(* structural induction with the hypothesis for every immediate subterm: the principle Coq
   derives for this nested type says nothing about the arguments of EFun *)
Lemma ast_ind' (P : ast -> Prop) : (forall e, (forall x, In x (children e) -> P x) -> P e) -> forall e, P e.
Proof.
  intro H. fix IH 1. intro e. apply H.
  destruct e; cbn [children In]; intros x Hx; repeat (destruct Hx as [<-|Hx]; [apply IH|]); try contradiction.
  induction args as [|a args IHa]; [contradiction|]. destruct Hx as [<-|Hx]; [apply IH | apply IHa, Hx].
Qed.
End AstInd.

(* the cells an expression mentions (a superset of those it reads) *)
Fixpoint refs {num} (e : ast num) : list cref :=
  match e with
  | ERef s r c => [mkref s r c]
  | ERange s r1 c1 r2 c2 => range_cells s r1 c1 r2 c2
  | EUnary _ x => refs x
  | EImplicit x => refs x
  | EBin _ l r => refs l ++ refs r
  | EConcat l r => refs l ++ refs r
  | ECmp _ l r => refs l ++ refs r
  | EFun _ args => flat_map refs args
  | _ => []
  end.

Lemma refs_child {num} (x e : ast num) : In x (children e) -> incl (refs x) (refs e).
Proof.
  destruct e; cbn [children refs In]; intro H;
    repeat (destruct H as [<-|H]; [auto using incl_refl, incl_appl, incl_appr|]); try contradiction.
  intros c Hc. apply in_flat_map. exists x. auto.
Qed.

Lemma range_cells_single s r c : range_cells s r c r c = [mkref s r c].
Proof.
  unfold range_cells, row_cells, zspan, zseq.
  replace (r - r + 1) with 1 by lia. replace (c - c + 1) with 1 by lia.
  change (Z.to_nat 1) with 1%nat. cbn [seq map flat_map app Z.of_nat]. rewrite !Z.add_0_r. reflexivity.
Qed.

Lemma in_zspan a b x : In x (zspan a b) <-> a <= x <= b.
Proof.
  unfold zspan, zseq. rewrite in_map_iff. split.
  - intros [i [<- Hi]]. apply in_seq in Hi. lia.
  - intro H. exists (Z.to_nat (x - a)). split; [lia|]. apply in_seq. lia.
Qed.

Lemma in_range_cells s r1 c1 r2 c2 d :
  In d (range_cells s r1 c1 r2 c2) <-> c_sheet d = s /\ r1 <= c_row d <= r2 /\ c1 <= c_col d <= c2.
Proof.
  unfold range_cells, row_cells. rewrite in_flat_map. split.
  - intros [r [Hr Hd]]. apply in_map_iff in Hd as [c [<- Hc]]. apply in_zspan in Hr. apply in_zspan in Hc. cbn. auto.
  - intros [Hs [Hr Hc]]. exists (c_row d). split; [apply in_zspan; exact Hr|].
    apply in_map_iff. exists (c_col d). split; [destruct d; cbn in *; subst; reflexivity | apply in_zspan; exact Hc].
Qed.

Lemma implicit_in_range anchor s r1 c1 r2 c2 d :
  implicit_intersection anchor s r1 c1 r2 c2 = Some d -> In d (range_cells s r1 c1 r2 c2).
Proof.
  unfold implicit_intersection. intro H. apply in_range_cells.
  repeat match type of H with (if ?b then _ else _) = _ => destruct b eqn:? end; inversion H; subst d; cbn;
    rewrite ?negb_false_iff, ?andb_true_iff, ?Z.leb_le, ?Z.eqb_eq in *; lia.
Qed.

Section Rel.
Context {num : Type} (N : NumOps num) {S1 S2 : Type}.
Notation value := (value num). Notation ast := (ast num).
Variable R : S1 -> S2 -> Prop.
Variable allowed : cref -> Prop.

(* related computations: same result, related final states, and a fact about the result *)
Definition mrelP {A} (P : A -> Prop) (m1 : M (S:=S1) A) (m2 : M (S:=S2) A) : Prop :=
  forall s1 s2, R s1 s2 ->
    fst (m1 s1) = fst (m2 s2) /\ R (snd (m1 s1)) (snd (m2 s2)) /\ P (fst (m1 s1)).

Definition not_range (v : value) : Prop := match v with VRange _ _ _ _ _ => False | _ => True end.
(* a range value only spans allowed cells *)
Definition val_ok (v : value) : Prop :=
  match v with
  | VRange s r1 c1 r2 c2 => forall c, In c (range_cells s r1 c1 r2 c2) -> allowed c
  | _ => True
  end.
Lemma not_range_ok v : not_range v -> val_ok v.
Proof. destruct v; cbn; tauto. Qed.
(* a reference handed on unread, as the range of its one cell *)
Lemma ref_ok s r c : allowed (mkref s r c) -> val_ok (VRange s r c r c).
Proof. intros H d Hd. rewrite range_cells_single in Hd. destruct Hd as [<-|[]]. exact H. Qed.

Lemma mrelP_ret {A} (P : A -> Prop) a : P a -> mrelP P (ret a) (ret a).
Proof. intros H s1 s2 HR. cbn. auto. Qed.

Lemma mrelP_bind {A B} (P : A -> Prop) (Q : B -> Prop) m1 m2 k1 k2 :
  mrelP P m1 m2 -> (forall a, P a -> mrelP Q (k1 a) (k2 a)) -> mrelP Q (bind m1 k1) (bind m2 k2).
Proof.
  intros Hm Hk s1 s2 HR. unfold bind. specialize (Hm s1 s2 HR).
  destruct (m1 s1) as [a1 t1], (m2 s2) as [a2 t2]. cbn in Hm. destruct Hm as [-> [HR' HP]].
  apply Hk; assumption.
Qed.

Lemma mrelP_weaken {A} (P Q : A -> Prop) m1 m2 : (forall a, P a -> Q a) -> mrelP P m1 m2 -> mrelP Q m1 m2.
Proof. intros H Hm s1 s2 HR. destruct (Hm s1 s2 HR) as [a [b c]]. auto. Qed.

Definition T {A} : A -> Prop := fun _ => True.
Lemma mrelP_pure {A} (a : A) : mrelP T (ret a) (ret a).
Proof. apply mrelP_ret. exact I. Qed.
Lemma mrelP_map {A B} (P : A -> Prop) (g : A -> B) m1 m2 :
  mrelP P m1 m2 -> mrelP T (bind m1 (fun a => ret (g a))) (bind m2 (fun a => ret (g a))).
Proof. intro H. eapply mrelP_bind; [exact H|]. intros a _. apply mrelP_pure. Qed.

Variable rd1 : cref -> M (S:=S1) value.
Variable rd2 : cref -> M (S:=S2) value.
Hypothesis Hrd : forall c, allowed c -> mrelP not_range (rd1 c) (rd2 c).

Lemma mrelP_mapM {A B} (f1 : A -> M (S:=S1) B) (f2 : A -> M (S:=S2) B) l :
  (forall x, In x l -> mrelP T (f1 x) (f2 x)) -> mrelP T (mapM f1 l) (mapM f2 l).
Proof.
  induction l as [|x l IH]; intro H; cbn [mapM]; [apply mrelP_pure|].
  eapply mrelP_bind; [apply H; left; reflexivity|]. intros y _.
  eapply mrelP_map, IH. intros z Hz. apply H. right. exact Hz.
Qed.

Lemma mrelP_read_range conv s r1 c1 r2 c2 :
  (forall c, In c (range_cells s r1 c1 r2 c2) -> allowed c) ->
  mrelP T (read_range rd1 conv s r1 c1 r2 c2) (read_range rd2 conv s r1 c1 r2 c2).
Proof.
  intro H. unfold read_range. apply mrelP_mapM. intros r Hr. apply mrelP_mapM. intros c Hc.
  eapply mrelP_map, Hrd, H. apply in_flat_map. exists r. auto.
Qed.

(* a function is only ever left early with a value that is not a range *)
Definition step_ok (st : step (num:=num) (acc (num:=num))) : Prop := match st with Stop v => not_range v | Continue _ => True end.
Lemma short_check_ok f a : step_ok (short_check f a).
Proof. unfold short_check. destruct (a_bool a) as [cur|]; [destruct (Bool.eqb cur (short_value f))|]; exact I. Qed.
Lemma agg_cell_ok f a v : step_ok (agg_cell N f a v).
Proof. destruct f, v; cbn [agg_cell]; try exact I; apply short_check_ok. Qed.
Lemma agg_node_ok f a x : step_ok (agg_node N f a x).
Proof. destruct f, x; cbn [agg_node]; try exact I; apply short_check_ok. Qed.
Lemma fold_nodes_ok f l a : step_ok (fold_nodes N f l a).
Proof.
  revert a; induction l as [|x l IH]; intro a; cbn [fold_nodes]; [exact I|].
  pose proof (agg_node_ok f a x) as H. destruct (agg_node N f a x); [apply IH | exact H].
Qed.
Lemma agg_direct_ok f isref a v v2 : step_ok (agg_direct N f isref a v v2).
Proof.
  destruct f, v; cbn [agg_direct]; try exact I; try apply short_check_ok;
  repeat match goal with |- context [match ?x with _ => _ end] => destruct x end; try exact I; apply short_check_ok.
Qed.

Lemma mrelP_scan_cells f cs a :
  (forall c, In c cs -> allowed c) ->
  mrelP step_ok (scan_cells N rd1 f cs a) (scan_cells N rd2 f cs a).
Proof.
  revert a. induction cs as [|c cs IH]; intros a H; cbn [scan_cells].
  - apply mrelP_ret. exact I.
  - eapply mrelP_bind; [apply Hrd; apply H; left; reflexivity|]. intros v _.
    pose proof (agg_cell_ok f a v) as Hok.
    destruct (agg_cell N f a v); [apply IH; intros d Hd; apply H; right; exact Hd | apply mrelP_ret; exact Hok].
Qed.

(* the four ways an operand is forced: only a range reads cells *)
Lemma mrelP_force v : val_ok v ->
  mrelP T (number_or_array N rd1 v) (number_or_array N rd2 v) /\
  mrelP T (string_or_array N rd1 v) (string_or_array N rd2 v) /\
  mrelP T (value_or_array rd1 v) (value_or_array rd2 v) /\
  mrelP T (to_ifarg rd1 v) (to_ifarg rd2 v).
Proof.
  intro Hv. destruct v; cbn [number_or_array string_or_array value_or_array to_ifarg]; (split; [|split; [|split]]);
    try apply mrelP_pure; eapply mrelP_map, mrelP_read_range, Hv.
Qed.
(* an operand is evaluated, then forced *)
Lemma mrelP_bind_conv {A B} (Q : B -> Prop) m1 m2 c1 c2 k1 k2 :
  mrelP val_ok m1 m2 -> (forall v, val_ok v -> mrelP T (c1 v) (c2 v)) -> (forall x : A, mrelP Q (k1 x) (k2 x)) ->
  mrelP Q (bind m1 (fun v => bind (c1 v) k1)) (bind m2 (fun v => bind (c2 v) k2)).
Proof.
  intros Hm Hc Hk. eapply mrelP_bind; [exact Hm|]. intros v Hv.
  eapply mrelP_bind; [apply Hc, Hv|]. intros x _. apply Hk.
Qed.

Lemma mrelP_agg_arg f isref a v re1 re2 :
  val_ok v -> mrelP val_ok re1 re2 ->
  mrelP step_ok (agg_arg N rd1 f isref a v re1) (agg_arg N rd2 f isref a v re2).
Proof.
  intros Hv Hre. destruct v; cbn [agg_arg]; try (apply mrelP_ret; apply agg_direct_ok).
  - destruct f; try (apply mrelP_ret; apply agg_direct_ok);
      (destruct isref; [apply mrelP_ret; apply agg_direct_ok | eapply mrelP_bind; [exact Hre|]; intros v2 _; apply mrelP_ret; apply agg_direct_ok]).
  - apply mrelP_scan_cells. exact Hv.
  - destruct f; apply mrelP_ret; try exact I; apply fold_nodes_ok.
Qed.

Lemma not_range_arith o l r : not_range (arith N o l r).
Proof. destruct l, r; cbn; try exact I; match goal with |- context [apply_op ?a ?b ?c ?d] => destruct (apply_op a b c d) end; exact I. Qed.
Lemma not_range_concat l r : not_range (concat N l r).
Proof. destruct l, r; exact I. Qed.
Lemma not_range_cmp k l r : not_range (comparison_op N k l r).
Proof. destruct l, r; exact I. Qed.
Lemma not_range_unary k f : not_range (unary N k f).
Proof. destruct k; exact I. Qed.
Lemma not_range_finish f a : not_range (agg_finish N f a).
Proof. destruct f; cbn; try exact I; repeat match goal with |- context [match ?x with _ => _ end] => destruct x end; exact I. Qed.

Variable anchor : cref.
Notation ev1 := (eval_st N rd1 anchor). Notation ev2 := (eval_st N rd2 anchor).

Ltac ret_nr := apply mrelP_ret, not_range_ok; exact I.
Local Hint Resolve not_range_arith not_range_concat not_range_cmp : ops.

Theorem eval_st_rel : forall e, (forall c, In c (refs e) -> allowed c) -> mrelP val_ok (ev1 e) (ev2 e).
Proof.
  induction e as [e IH] using ast_ind'. intro Hall.
  (* every immediate subterm mentions allowed cells only, and its two runs are related *)
  assert (Hsub : forall x, In x (children e) -> (forall c, In c (refs x) -> allowed c) /\ mrelP val_ok (ev1 x) (ev2 x)).
  { intros x Hx. assert (Hr : forall c, In c (refs x) -> allowed c) by (intros c Hc; apply Hall; eapply refs_child; eassumption). auto. }
  clear IH. destruct e as [n|t|b|x| |s r c|s r1 c1 r2 c2|a|k e|o l r|l r|k l r|e|f args]; cbn [eval_st children] in *; try ret_nr.
  (* EBin, EConcat, ECmp: each operand is evaluated and forced, an error ends the evaluation *)
  4-6: (apply mrelP_bind_conv; [apply Hsub; cbn; auto | apply mrelP_force |]; intros [xl|er]; [|ret_nr];
        apply mrelP_bind_conv; [apply Hsub; cbn; auto | apply mrelP_force |]; intros [xr|er]; [|ret_nr];
        apply mrelP_ret, not_range_ok; auto with ops).
  - eapply mrelP_weaken; [apply not_range_ok | apply Hrd; apply Hall; left; reflexivity].
  - apply mrelP_ret. exact Hall.
  - eapply mrelP_bind; [apply Hsub; cbn; auto|]. intros v _. apply mrelP_ret, not_range_ok.
    destruct (cast_to_number N v); [apply not_range_unary | exact I].
  - (* EImplicit: a reference or range is not forced; anything else is evaluated, and evaluated again
       unless it gave a range *)
    destruct (Hsub e (or_introl eq_refl)) as [_ He]. cbn [refs] in Hall.
    eapply mrelP_bind.
    { instantiate (1 := val_ok). destruct e; try exact He. apply mrelP_ret, ref_ok, Hall. left. reflexivity. }
    intros w Hw. destruct w; try exact He.
    destruct (implicit_intersection anchor sheet r1 c1 r2 c2) as [cr|] eqn:Ei; [|ret_nr].
    eapply mrelP_weaken; [apply not_range_ok|]. apply Hrd, Hw. eapply implicit_in_range, Ei.
  - destruct (is_aggregate f) eqn:Eagg.
    + destruct (needs_args f && match args with [] => true | _ :: _ => false end); [ret_nr|].
      clear Hall. generalize (agg_init N f) as a0.
      induction args as [|x rest IHl]; intro a0; [apply mrelP_ret, not_range_ok, not_range_finish|].
      destruct (Hsub x (or_introl eq_refl)) as [Hr Hx].
      eapply mrelP_bind.
      { (* SUM does not force an argument that is a reference *)
        instantiate (1 := val_ok). destruct f; try exact Hx. destruct x; try exact Hx.
        apply mrelP_ret, ref_ok, Hr. left. reflexivity. }
      intros v Hv. eapply mrelP_bind; [apply mrelP_agg_arg; [exact Hv | exact Hx]|]. intros [a'|out] Hst.
      * apply IHl. intros y Hy. apply Hsub. right. exact Hy.
      * apply mrelP_ret, not_range_ok, Hst.
    + (* the functions with a fixed argument pattern *)
      clear Hall. destruct f; try discriminate Eagg; try ret_nr.
      (* ISNUMBER, ISTEXT, ISBLANK *)
      6-8: (destruct args as [|x [|? ?]]; try ret_nr; eapply mrelP_bind; [apply Hsub; cbn; auto|]; intros v _; ret_nr).
      * (* IF, with and without an else branch *)
        destruct args as [|c [|t [|el [|? ?]]]]; try ret_nr.
        all: eapply mrelP_bind; [apply Hsub; cbn; auto|]; intros vc Hvc.
        all: destruct vc; try ret_nr; try (destruct (cast_to_bool N _) as [[|]|]; try ret_nr; apply Hsub; cbn; auto).
        (* the condition as an array: a range is read, an array is itself *)
        all: eapply mrelP_bind; [first [apply mrelP_read_range, Hvc | apply mrelP_pure]|]; intros cond _.
        all: apply mrelP_bind_conv; [apply Hsub; cbn; auto | apply mrelP_force |]; intro ta; try ret_nr.
        all: apply mrelP_bind_conv; [apply Hsub; cbn; auto | apply mrelP_force |]; intro fa; ret_nr.
      * (* NOT *)
        destruct args as [|x [|? ?]]; try ret_nr.
        eapply mrelP_bind; [apply Hsub; cbn; auto|]. intros v _. apply mrelP_ret, not_range_ok.
        destruct (cast_to_bool N v); exact I.
      * (* ABS *)
        destruct args as [|x [|? ?]]; try ret_nr.
        apply mrelP_bind_conv; [apply Hsub; cbn; auto | apply mrelP_force |]. intros [[?|?]|?]; ret_nr.
      * (* ROUND *)
        destruct args as [|x [|d [|? ?]]]; try ret_nr.
        eapply mrelP_bind; [apply Hsub; cbn; auto|]. intros vx _.
        destruct (cast_to_number N vx); [|ret_nr].
        eapply mrelP_bind; [apply Hsub; cbn; auto|]. intros vd _.
        apply mrelP_ret, not_range_ok. destruct (cast_to_number N vd); exact I.
      * (* LEN *)
        destruct args as [|x [|? ?]]; try ret_nr.
        eapply mrelP_bind; [apply Hsub; cbn; auto|]. intros v _. apply mrelP_ret, not_range_ok. destruct v; exact I.
      * (* IFERROR *)
        destruct args as [|x [|fb [|? ?]]]; try ret_nr.
        eapply mrelP_bind; [apply Hsub; cbn; auto|]. intros v Hv.
        destruct v; try (apply mrelP_ret; exact Hv); try (apply Hsub; cbn; auto).
        all: eapply mrelP_bind; [first [apply mrelP_read_range, Hv | apply mrelP_pure]|]; intros va _.
        all: apply mrelP_bind_conv; [apply Hsub; cbn; auto | apply mrelP_force |]; intro fa; ret_nr.
Qed.

(* the post-processing of a formula result *)
Lemma finish_range_rel v : val_ok v ->
  mrelP not_range (finish_range rd1 anchor v) (finish_range rd2 anchor v).
Proof.
  intro Hv. destruct v; cbn [finish_range]; try (apply mrelP_ret; exact I).
  destruct ((r1 =? r2) && (c1 =? c2)) eqn:E.
  - apply andb_true_iff in E as [A%Z.eqb_eq B%Z.eqb_eq]. apply Hrd, Hv, in_range_cells. cbn. lia.
  - destruct (_ || _); [apply mrelP_ret; exact I|].
    eapply mrelP_bind; [apply mrelP_read_range, Hv|]. intros a _. apply mrelP_ret. exact I.
Qed.

Theorem eval_formula_rel f : (forall c, In c (refs f) -> allowed c) ->
  mrelP not_range (eval_formula N rd1 anchor f) (eval_formula N rd2 anchor f).
Proof.
  intro H. unfold eval_formula. eapply mrelP_bind; [apply eval_st_rel; exact H|].
  intros v Hv. apply finish_range_rel. exact Hv.
Qed.

End Rel.
