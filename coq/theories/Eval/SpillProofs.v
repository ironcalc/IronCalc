(* Eval/SpillProofs.v — proofs about the spill model (property C31). *)
From IronCalc Require Import Base.Prelude Eval.Spill.

Section SpillProofs.
Context {V : Type}.
Variable spill_err calc_err uneval : V.
Variable dflt : pos -> Z.

Notation cell := (cell V).
Notation sheet := (sheet V).
Notation style_at := (style_at dflt).
Notation style_of := (style_of dflt).
Notation clear_contents := (clear_contents dflt).
Notation clear_own_spills := (clear_own_spills dflt).
Notation write_cells := (write_cells dflt).
Notation write_dynamic := (write_dynamic spill_err calc_err dflt).
Notation eval_anchor := (eval_anchor spill_err calc_err dflt).
Notation eval_anchors := (eval_anchors spill_err calc_err dflt).
Notation reset_one := (reset_one uneval dflt).
Notation reset_spills_from := (reset_spills_from uneval dflt).
Notation reset_spills := (reset_spills uneval dflt).
Notation prepare_for_input := (prepare_for_input uneval dflt).

Implicit Types (sh : sheet) (x : option cell) (arr : list (list V)) (vs : list V) (v : V).

(* ---- positions ---------------------------------------------------------------------------- *)
Lemma pos_eqb_spec (p q : pos) : reflect (p = q) (pos_eqb p q).
Proof.
  destruct p as [a b], q as [c d]; unfold pos_eqb; cbn [fst snd].
  destruct (Z.eqb_spec a c), (Z.eqb_spec b d); constructor; congruence.
Qed.
Lemma pos_eqb_refl (p : pos) : pos_eqb p p = true.
Proof. destruct (pos_eqb_spec p p); congruence. Qed.
Lemma pos_eqb_neq (p q : pos) : p <> q -> pos_eqb p q = false.
Proof. destruct (pos_eqb_spec p q); congruence. Qed.
Lemma pos_eqb_sym (p q : pos) : pos_eqb p q = pos_eqb q p.
Proof. destruct (pos_eqb_spec p q), (pos_eqb_spec q p); congruence. Qed.

(* ---- the finite map ---------------------------------------------------------------------- *)
Lemma get_remove sh p q : get (remove p sh) q = if pos_eqb p q then None else get sh q.
Proof.
  induction sh as [|[r c] sh IH]; cbn [remove get].
  - destruct (pos_eqb p q); reflexivity.
  - destruct (pos_eqb_spec r p) as [->|N]; cbn [get]; rewrite IH.
    + destruct (pos_eqb p q); reflexivity.
    + destruct (pos_eqb_spec r q) as [<-|]; [rewrite pos_eqb_neq by congruence|]; reflexivity.
Qed.

Lemma get_set sh p c q : get (set p c sh) q = if pos_eqb p q then Some c else get sh q.
Proof. unfold set; cbn [get]. rewrite get_remove. destruct (pos_eqb p q); reflexivity. Qed.

Lemma get_in_keys sh p c : get sh p = Some c -> In p (keys sh).
Proof.
  induction sh as [|[r c'] sh IH]; cbn [get keys map fst]; [discriminate|].
  destruct (pos_eqb_spec r p); [left; assumption | right; auto].
Qed.

(* ---- rectangles and the grid ------------------------------------------------------------------ *)
Lemma in_rect_spec a w h p :
  in_rect a w h p = true <-> fst a <= fst p < fst a + h /\ snd a <= snd p < snd a + w.
Proof. unfold in_rect. rewrite !andb_true_iff, !Z.leb_le, !Z.ltb_lt. lia. Qed.

Lemma on_grid_spec p : on_grid p = true <-> 1 <= fst p <= LAST_ROW /\ 1 <= snd p <= LAST_COLUMN.
Proof. unfold on_grid. rewrite !andb_true_iff, !Z.leb_le. lia. Qed.

Lemma in_zrange s n z : In z (zrange s n) <-> s <= z < s + Z.of_nat n.
Proof. revert s; induction n as [|n IH]; intros s; cbn [zrange In]; [|rewrite IH]; lia. Qed.

Lemma in_rect_iff a w h p : In p (rect a w h) <-> in_rect a w h p = true.
Proof.
  rewrite in_rect_spec. unfold rect. rewrite in_flat_map. split.
  - intros (r & Hr & Hp). apply in_map_iff in Hp as (c & <- & Hc). apply in_zrange in Hr, Hc.
    cbn [fst snd]. lia.
  - intros H. exists (fst p). split; [apply in_zrange; lia|].
    apply in_map_iff. exists (snd p). split; [symmetry; apply surjective_pairing | apply in_zrange; lia].
Qed.

Lemma existsb_rect a w h q : existsb (pos_eqb q) (rect a w h) = in_rect a w h q.
Proof.
  apply eq_true_iff_eq. rewrite existsb_exists, <- in_rect_iff. split.
  - intros (x & Hx & E). destruct (pos_eqb_spec q x); congruence.
  - intros H. exists q. split; [exact H | apply pos_eqb_refl].
Qed.

Lemma in_rect_anchor a w h : 1 <= w -> 1 <= h -> in_rect a w h a = true.
Proof. intros. apply in_rect_spec. lia. Qed.

Lemma in_rect_11 a p : in_rect a 1 1 p = pos_eqb a p.
Proof.
  apply eq_true_iff_eq. rewrite in_rect_spec. unfold pos_eqb.
  rewrite andb_true_iff, !Z.eqb_eq. lia.
Qed.

Lemma rect_on_grid a w h q :
  on_grid a = true -> fst a + h - 1 <= LAST_ROW -> snd a + w - 1 <= LAST_COLUMN ->
  in_rect a w h q = true -> on_grid q = true.
Proof. rewrite !on_grid_spec, in_rect_spec. lia. Qed.

(* ---- loops that clear cells ----------------------------------------------------------------- *)
(* what [get] finds at [p] once cell_clear_contents has run there, if [b] and [cond] hold *)
Definition clr (cond : pos -> option cell -> bool) (b : bool) (p : pos) (x : option cell) : option cell :=
  if b && cond p x && on_grid p then Some (mkcell (style_of x p) KEmpty) else x.

(* clearing keeps the style, so clearing twice is clearing once *)
Lemma clr_clr cond b1 b2 p x : clr cond b2 p (clr cond b1 p x) = clr cond (b1 || b2) p x.
Proof.
  unfold clr. destruct b1; cbn [andb orb]; [|reflexivity].
  destruct (cond p x) eqn:C, (on_grid p); cbn [andb]; rewrite ?C, ?andb_false_r; try reflexivity.
  cbn [Spill.style_of c_s]. destruct (b2 && cond p _ && true); reflexivity.
Qed.

Lemma get_clear_if (cond : pos -> option cell -> bool) sh p q :
  get (if cond p (get sh p) then clear_contents sh p else sh) q = clr cond (pos_eqb p q) q (get sh q).
Proof.
  unfold clr, Spill.clear_contents. destruct (pos_eqb_spec p q) as [->|N]; cbn [andb].
  - destruct (cond q (get sh q)), (on_grid q); rewrite ?get_set, ?pos_eqb_refl; reflexivity.
  - destruct (cond p (get sh p)), (on_grid p); rewrite ?get_set, ?(pos_eqb_neq p q N); reflexivity.
Qed.

(* a loop over [l] whose body clears the cell it visits when [cond] holds of it *)
Lemma get_fold_clear (cond : pos -> option cell -> bool) (step : sheet -> pos -> sheet) :
  (forall sh p, step sh p = if cond p (get sh p) then clear_contents sh p else sh) ->
  forall l sh q, get (fold_left step l sh) q = clr cond (existsb (pos_eqb q) l) q (get sh q).
Proof.
  intros Hstep l. induction l as [|p l IH]; intros sh q; cbn [fold_left existsb]; [reflexivity|].
  rewrite IH, Hstep, get_clear_if, clr_clr, (pos_eqb_sym p q). reflexivity.
Qed.

(* ---- the cells written by the double loop ------------------------------------------------- *)
Lemma in_row_cells r c w vs p v :
  In (p, v) (row_cells r c w vs) <->
  exists j, (j < w)%nat /\ nth_error vs j = Some v /\ p = (r, c + Z.of_nat j).
Proof.
  revert c vs; induction w as [|w IH]; intros c vs; cbn [row_cells].
  - split; [intros [] | intros (j & H & _); lia].
  - destruct vs as [|x vs]; cbn [In].
    + split; [intros [] | intros (j & _ & H & _); destruct j; discriminate].
    + rewrite IH. split.
      * intros [[= <- <-] | (j & Hj & Hn & ->)]; [exists 0%nat | exists (S j)];
          (split; [lia|]); (split; [easy|]); f_equal; lia.
      * intros ([|j] & Hj & Hn & ->).
        -- left. injection Hn as <-. replace (c + Z.of_nat 0) with c by lia. reflexivity.
        -- right. exists j. split; [lia|]. split; [exact Hn|]. f_equal; lia.
Qed.

Lemma in_block_cells r c w arr p v :
  In (p, v) (block_cells r c w arr) <->
  exists i j, (j < w)%nat /\ elem arr i j = Some v /\ p = (r + Z.of_nat i, c + Z.of_nat j).
Proof.
  revert r; induction arr as [|vs arr IH]; intros r; cbn [block_cells].
  - split; [intros [] | intros (i & j & _ & H & _); destruct i; discriminate].
  - rewrite in_app_iff, in_row_cells, IH. split.
    + intros [(j & Hj & Hn & ->) | (i & j & Hj & He & ->)]; [exists 0%nat, j | exists (S i), j];
        (split; [assumption|]); (split; [assumption|]); f_equal; lia.
    + intros ([|i] & j & Hj & He & ->); [left; exists j | right; exists i, j];
        (split; [assumption|]); (split; [assumption|]); f_equal; lia.
Qed.

Lemma elem_some_of_not_short w arr i j :
  short_row w arr = false -> (i < length arr)%nat -> (j < w)%nat -> exists v, elem arr i j = Some v.
Proof.
  intros Hs Hi Hj. unfold elem.
  destruct (nth_error arr i) as [row|] eqn:E; [|apply nth_error_None in E; lia].
  destruct (nth_error row j) as [v|] eqn:E2; [exists v; reflexivity | exfalso].
  apply nth_error_None in E2. apply not_true_iff_false in Hs. apply Hs, existsb_exists.
  exists row. split; [eapply nth_error_In; exact E | apply Nat.ltb_lt; lia].
Qed.

(* the block of anchor [a] by position: the element that lands on [q] *)
Lemma in_block a wn arr q v :
  In (q, v) (block_cells (fst a) (snd a) wn arr) <->
  in_rect a (Z.of_nat wn) (Z.of_nat (length arr)) q = true /\
  elem arr (Z.to_nat (fst q - fst a)) (Z.to_nat (snd q - snd a)) = Some v.
Proof.
  rewrite in_block_cells, in_rect_spec. split.
  - intros (i & j & Hj & He & ->). cbn [fst snd].
    assert (Hi : (i < length arr)%nat).
    { apply nth_error_Some. unfold elem in He. destruct (nth_error arr i); congruence. }
    rewrite !Z.add_simpl_l, !Nat2Z.id. split; [lia | exact He].
  - intros [R He]. exists (Z.to_nat (fst q - fst a)), (Z.to_nat (snd q - snd a)).
    split; [lia|]. split; [exact He|]. rewrite (surjective_pairing q) at 1. f_equal; lia.
Qed.

Lemma new_cell_style a f s w h q v v' sty :
  new_cell a f s w h q v' (c_s (new_cell a f s w h q v sty)) = new_cell a f s w h q v' sty.
Proof. unfold new_cell. destruct (pos_eqb q a); reflexivity. Qed.

(* the last element written to [q] wins; its style is the one [q] had before the loop *)
Lemma get_write_cells a f s w h cells sh q :
  get (write_cells a f s w h cells sh) q =
  match find (fun e => pos_eqb (fst e) q) (rev cells) with
  | Some e => Some (new_cell a f s w h q (snd e) (style_at sh q))
  | None => get sh q
  end.
Proof.
  unfold Spill.write_cells. induction cells as [|[p x] r IH] using rev_ind; [reflexivity|].
  rewrite fold_left_app, rev_unit. cbn [fold_left find fst snd].
  unfold Spill.write_step at 1. cbn [fst snd]. rewrite get_set.
  destruct (pos_eqb_spec p q) as [->|]; [|exact IH].
  unfold Spill.style_at at 1. rewrite IH.
  destruct (find _ (rev r)); cbn [Spill.style_of]; [rewrite new_cell_style|]; reflexivity.
Qed.

Lemma write_block_out a f s wn arr sh q
      (w := Z.of_nat wn) (h := Z.of_nat (length arr)) :
  in_rect a w h q = false ->
  get (write_cells a f s w h (block_cells (fst a) (snd a) wn arr) sh) q = get sh q.
Proof.
  intros R. rewrite get_write_cells.
  destruct (find _ _) as [[p v]|] eqn:L; [exfalso | reflexivity].
  apply find_some in L as [L E]. cbn [fst] in E. destruct (pos_eqb_spec p q) as [->|]; [|discriminate].
  apply in_rev, in_block in L. subst w h. destruct L; congruence.
Qed.

Lemma write_block_in a f s wn arr sh q
      (w := Z.of_nat wn) (h := Z.of_nat (length arr)) :
  short_row wn arr = false -> in_rect a w h q = true ->
  exists v, elem arr (Z.to_nat (fst q - fst a)) (Z.to_nat (snd q - snd a)) = Some v /\
    get (write_cells a f s w h (block_cells (fst a) (snd a) wn arr) sh) q
    = Some (new_cell a f s w h q v (style_at sh q)).
Proof.
  intros Hs R. pose proof R as R'. apply in_rect_spec in R'.
  destruct (elem_some_of_not_short wn arr (Z.to_nat (fst q - fst a)) (Z.to_nat (snd q - snd a)) Hs)
    as [v Hv]; [lia | lia |].
  exists v. split; [exact Hv|]. rewrite get_write_cells.
  destruct (find _ _) as [[p x]|] eqn:L.
  - apply find_some in L as [L E]. cbn [fst] in E. destruct (pos_eqb_spec p q) as [->|]; [|discriminate].
    apply in_rev, in_block in L as [_ L]. cbn [snd]. congruence.
  - apply find_none with (x := (q, v)) in L; [cbn [fst] in L; rewrite pos_eqb_refl in L; discriminate|].
    apply -> in_rev. apply in_block. split; [exact R | exact Hv].
Qed.

Lemma write_block_anchor a f s wn arr sh
      (w := Z.of_nat wn) (h := Z.of_nat (length arr)) :
  short_row wn arr = false -> 1 <= w -> 1 <= h ->
  ext_of (write_cells a f s w h (block_cells (fst a) (snd a) wn arr) sh) a = Some (w, h).
Proof.
  intros Hs Hw Hh. subst w h.
  destruct (write_block_in a f s wn arr sh a Hs (in_rect_anchor a _ _ Hw Hh)) as (v & _ & G).
  unfold ext_of. rewrite G. unfold new_cell. rewrite pos_eqb_refl. reflexivity.
Qed.

(* ---- the invariant --------------------------------------------------------------------------- *)
Definition is_dyn (sh : sheet) (a : pos) : Prop :=
  exists c f w h v, get sh a = Some c /\ c_k c = KDyn f w h v.

(* every spill cell has an anchor (dynamic or CSE) whose current extent covers it *)
Definition covered (sh : sheet) : Prop :=
  forall p c ar ac v, get sh p = Some c -> c_k c = KSpill ar ac v ->
  exists w h, ext_of sh (ar, ac) = Some (w, h) /\ in_rect (ar, ac) w h p = true /\ p <> (ar, ac).

(* extents are non-empty and inside the grid *)
Definition exts_ok (sh : sheet) : Prop :=
  forall a w h, ext_of sh a = Some (w, h) ->
  1 <= w /\ 1 <= h /\ on_grid a = true /\ fst a + h - 1 <= LAST_ROW /\ snd a + w - 1 <= LAST_COLUMN.

(* extents of different anchors have no cell in common *)
Definition exts_disjoint (sh : sheet) : Prop :=
  forall a1 a2 w1 h1 w2 h2 q, a1 <> a2 ->
  ext_of sh a1 = Some (w1, h1) -> ext_of sh a2 = Some (w2, h2) ->
  in_rect a1 w1 h1 q = true -> in_rect a2 w2 h2 q = true -> False.

Definition spill_inv (sh : sheet) : Prop := covered sh /\ exts_ok sh /\ exts_disjoint sh.

(* every cell of an extent except the anchor is a spill cell of that anchor ("fills exactly") *)
Definition full_at (sh : sheet) (a : pos) : Prop :=
  forall w h q, ext_of sh a = Some (w, h) -> in_rect a w h q = true -> q <> a ->
  is_own_spill a (get sh q) = true.
Definition full (sh : sheet) : Prop := forall a, full_at sh a.
Definition full_except (x : pos) (sh : sheet) : Prop := forall a, a <> x -> full_at sh a.
Definition no_own (a : pos) (sh : sheet) : Prop := forall q, is_own_spill a (get sh q) = false.

Lemma own_spill_elim a x :
  is_own_spill a x = true -> exists c v, x = Some c /\ c_k c = KSpill (fst a) (snd a) v.
Proof.
  destruct x as [c|]; cbn [is_own_spill]; [|discriminate].
  destruct (c_k c) as [| | | | |ar ac v] eqn:K; try discriminate.
  destruct (pos_eqb_spec (ar, ac) a) as [<-|]; [eauto | discriminate].
Qed.

Lemma own_spill_intro a x c v :
  x = Some c -> c_k c = KSpill (fst a) (snd a) v -> is_own_spill a x = true.
Proof. intros -> K. cbn [is_own_spill]. rewrite K, <- surjective_pairing. apply pos_eqb_refl. Qed.

Lemma own_spill_unique a b x : is_own_spill a x = true -> is_own_spill b x = true -> a = b.
Proof.
  intros H1 H2. apply own_spill_elim in H1 as (c & v & -> & K). cbn [is_own_spill] in H2.
  rewrite K, <- surjective_pairing in H2. destruct (pos_eqb_spec a b); congruence.
Qed.

Lemma own_spill_not_anchor a sh q : is_own_spill a (get sh q) = true -> ext_of sh q = None.
Proof.
  intros H. apply own_spill_elim in H as (c & v & G & K). unfold ext_of, anchor_ext. rewrite G, K. reflexivity.
Qed.

Lemma ext_of_dyn sh a c f w h v :
  get sh a = Some c -> c_k c = KDyn f w h v -> ext_of sh a = Some (w, h).
Proof. intros G K. unfold ext_of, anchor_ext. rewrite G, K. reflexivity. Qed.

Lemma dyn_ext (sh : sheet) a : is_dyn sh a -> exists w h, ext_of sh a = Some (w, h).
Proof. intros (c & f & w & h & v & G & K). exists w, h. exact (ext_of_dyn sh a c f w h v G K). Qed.

Lemma dyn_not_spill sh a b : is_dyn sh a -> is_own_spill b (get sh a) = false.
Proof. intros (c & f & w & h & v & G & K). rewrite G. cbn [is_own_spill]. rewrite K. reflexivity. Qed.

Lemma ext_in_keys sh p e : ext_of sh p = Some e -> In p (keys sh).
Proof.
  unfold ext_of. destruct (get sh p) as [c|] eqn:G; [intros _; exact (get_in_keys sh p c G) | discriminate].
Qed.

(* ---- what blocks a write --------------------------------------------------------------------- *)
Lemma blocks_spec a (c : cell) :
  blocks a (Some c) = true <-> c_k c <> KEmpty /\ (forall v, c_k c <> KSpill (fst a) (snd a) v).
Proof.
  cbn [blocks]. destruct (c_k c) as [| | | | |ar ac v].
  1: split; [discriminate | intros [H _]; congruence].
  1-4: split; [split; [|intros ?]; discriminate | reflexivity].
  destruct (pos_eqb_spec (ar, ac) a) as [<-|N]; cbn [negb fst snd]; split.
  - discriminate.
  - intros [_ H]. destruct (H v eq_refl).
  - intros _. split; [discriminate|]. intros v0 [= -> ->]. apply N, eq_sym, surjective_pairing.
  - reflexivity.
Qed.

Lemma anchor_blocks a sh b e : ext_of sh b = Some e -> blocks a (get sh b) = true.
Proof.
  unfold ext_of, anchor_ext, blocks. destruct (get sh b) as [c|]; [|discriminate].
  destruct (c_k c); try discriminate; reflexivity.
Qed.

Lemma own_spill_blocks a b x : is_own_spill b x = true -> b <> a -> blocks a x = true.
Proof.
  intros H N. apply own_spill_elim in H as (c & v & -> & K). cbn [blocks].
  rewrite K, <- surjective_pairing, (pos_eqb_neq b a N). reflexivity.
Qed.

Lemma blocks_not_own a x : blocks a x = true -> is_own_spill a x = false.
Proof.
  destruct x as [c|]; [|reflexivity]. cbn [blocks is_own_spill].
  destruct (c_k c); try reflexivity. apply negb_true_iff.
Qed.

Lemma blocked_spec a w h sh :
  blocked a w h sh = true <-> exists q, in_rect a w h q = true /\ q <> a /\ blocks a (get sh q) = true.
Proof.
  unfold blocked. rewrite existsb_exists. split; intros (q & R & H); exists q.
  - apply in_rect_iff in R. destruct (pos_eqb_spec q a); [discriminate | auto].
  - destruct H as [N B]. rewrite B, (pos_eqb_neq q a N). split; [apply in_rect_iff; exact R | reflexivity].
Qed.

Lemma not_blocked_elim a w h sh q :
  blocked a w h sh = false -> in_rect a w h q = true -> q <> a -> blocks a (get sh q) = false.
Proof.
  intros Hb R N. apply not_true_iff_false. intros B.
  apply not_true_iff_false in Hb. apply Hb, blocked_spec. eauto.
Qed.

(* the blocking condition in words *)
Lemma blocked_iff a w h sh :
  blocked a w h sh = true <->
  exists q c, in_rect a w h q = true /\ q <> a /\ get sh q = Some c /\ c_k c <> KEmpty /\
              (forall v, c_k c <> KSpill (fst a) (snd a) v).
Proof.
  rewrite blocked_spec. split.
  - intros (q & R & N & B). destruct (get sh q) as [c|] eqn:G; [|discriminate].
    apply blocks_spec in B. exists q, c. auto.
  - intros (q & c & R & N & G & K). exists q. rewrite G, blocks_spec. auto.
Qed.

Lemma blocked_11 a sh : blocked a 1 1 sh = false.
Proof.
  apply not_true_iff_false. intros B. apply blocked_spec in B as (q & R & N & _).
  rewrite in_rect_11 in R. destruct (pos_eqb_spec a q); congruence.
Qed.

(* ---- how the invariant moves ------------------------------------------------------------------- *)
(* The state between the clearing and the write of anchor [a] — [spill_inv], [full_except a],
   [no_own a], [is_dyn _ a] — is where the next three lemmas start.  In it every cell of another
   anchor's extent blocks [a]. *)
Lemma other_extent_blocks sh a b wb hb q :
  full_except a sh -> is_dyn sh a -> b <> a -> ext_of sh b = Some (wb, hb) -> in_rect b wb hb q = true ->
  q <> a /\ blocks a (get sh q) = true.
Proof.
  intros Hfull Hdyn Nb Eb Rq. destruct (pos_eqb_spec q b) as [->|Nq].
  - split; [exact Nb | exact (anchor_blocks a sh b _ Eb)].
  - pose proof (Hfull b Nb wb hb q Eb Rq Nq) as Own. split; [|exact (own_spill_blocks a b _ Own Nb)].
    intros ->. rewrite (dyn_not_spill sh a b Hdyn) in Own. discriminate.
Qed.

(* Rewriting a rectangle at [a] in which nothing blocks: every cell of it but [a] becomes a spill
   cell of [a], and [a] an anchor whose extent is the rectangle — or, when the rectangle is [a]
   alone, an empty cell.  The invariant and fullness hold afterwards, for every anchor. *)
Lemma block_inv sh sh' a w h :
  spill_inv sh -> full_except a sh -> no_own a sh -> is_dyn sh a ->
  1 <= w -> 1 <= h -> fst a + h - 1 <= LAST_ROW -> snd a + w - 1 <= LAST_COLUMN ->
  blocked a w h sh = false ->
  (forall q, in_rect a w h q = false -> get sh' q = get sh q) ->
  (forall q, in_rect a w h q = true -> q <> a -> is_own_spill a (get sh' q) = true) ->
  ext_of sh' a = Some (w, h) \/
    (forall q, in_rect a w h q = true -> q = a) /\ (exists c, get sh' a = Some c /\ c_k c = KEmpty) ->
  spill_inv sh' /\ full sh'.
Proof.
  intros (Hcov & Hok & Hdis) Hfull Hno Hdyn Hw Hh Hfr Hfc Hub Hout Hin Hanc.
  assert (Hg : on_grid a = true).
  { destruct (dyn_ext sh a Hdyn) as (w0 & h0 & E0). apply (Hok a w0 h0 E0). }
  (* the rectangle meets no other anchor's extent *)
  assert (N : forall b wb hb q, b <> a -> ext_of sh b = Some (wb, hb) -> in_rect b wb hb q = true ->
              in_rect a w h q = false).
  { intros b wb hb q Nb Eb Rq. destruct (other_extent_blocks sh a b wb hb q Hfull Hdyn Nb Eb Rq) as [Nq Bq].
    destruct (in_rect a w h q) eqn:R; [|reflexivity].
    rewrite (not_blocked_elim a w h sh q Hub R Nq) in Bq. discriminate. }
  (* so the other anchors keep their extents, and these, with the rectangle if [a] claims it, are all *)
  assert (K : forall b wb hb, b <> a -> ext_of sh b = Some (wb, hb) -> ext_of sh' b = Some (wb, hb)).
  { intros b wb hb Nb Eb. destruct (Hok b wb hb Eb) as (Hwb & Hhb & _). unfold ext_of.
    rewrite (Hout b (N b wb hb b Nb Eb (in_rect_anchor b wb hb Hwb Hhb))). exact Eb. }
  assert (E : forall q e, ext_of sh' q = Some e -> (q = a /\ e = (w, h)) \/ (q <> a /\ ext_of sh q = Some e)).
  { intros q e Eq. destruct (pos_eqb_spec q a) as [->|Nq].
    - left. split; [reflexivity|]. destruct Hanc as [Ea | (_ & c & Ga & Kc)]; [congruence|].
      unfold ext_of, anchor_ext in Eq. rewrite Ga, Kc in Eq. discriminate.
    - right. split; [exact Nq|]. destruct (in_rect a w h q) eqn:R.
      + rewrite (own_spill_not_anchor a sh' q (Hin q R Nq)) in Eq. discriminate.
      + unfold ext_of in *. rewrite <- (Hout q R). exact Eq. }
  split; [split; [|split]|].
  - intros p c ar ac v G Kc. destruct (in_rect a w h p) eqn:R.
    + destruct (pos_eqb_spec p a) as [->|Np].
      * destruct Hanc as [Ea | (_ & c' & Ga & Kc')]; [|congruence].
        unfold ext_of, anchor_ext in Ea. rewrite G, Kc in Ea. discriminate.
      * destruct Hanc as [Ea | [One _]]; [|destruct (Np (One p R))].
        rewrite (own_spill_unique (ar, ac) a _ (own_spill_intro (ar, ac) _ c v G Kc) (Hin p R Np)).
        exists w, h. auto.
    + rewrite (Hout p R) in G. destruct (Hcov p c ar ac v G Kc) as (w' & h' & Eb & Rb).
      exists w', h'. split; [|exact Rb]. apply K; [|exact Eb].
      intros Ea. pose proof (own_spill_intro (ar, ac) _ c v G Kc) as X. rewrite Ea, Hno in X. discriminate.
  - intros b wb hb Eb. destruct (E b _ Eb) as [[-> [= <- <-]] | [_ Eb']]; [auto 6 | exact (Hok b wb hb Eb')].
  - intros a1 a2 w1 h1 w2 h2 q Nn E1 E2 R1 R2.
    destruct (E a1 _ E1) as [[-> [= <- <-]] | [N1 E1']], (E a2 _ E2) as [[-> [= <- <-]] | [N2 E2']].
    + contradiction.
    + rewrite (N a2 w2 h2 q N2 E2' R2) in R1. discriminate.
    + rewrite (N a1 w1 h1 q N1 E1' R1) in R2. discriminate.
    + exact (Hdis a1 a2 w1 h1 w2 h2 q Nn E1' E2' R1 R2).
  - intros b wb hb q Eb Rq Nq. destruct (E b _ Eb) as [[-> [= <- <-]] | [Nb Eb']].
    + apply Hin; assumption.
    + rewrite (Hout q (N b wb hb q Nb Eb' Rq)). exact (Hfull b Nb wb hb q Eb' Rq Nq).
Qed.

(* Only the cell of [a] changes: it becomes an anchor of extent (1,1), or an empty cell. *)
Lemma anchor_cell_inv sh sh' a c :
  spill_inv sh -> full_except a sh -> no_own a sh -> is_dyn sh a ->
  (forall q, get sh' q = if pos_eqb a q then Some c else get sh q) ->
  (exists f v, c_k c = KDyn f 1 1 v) \/ c_k c = KEmpty ->
  spill_inv sh' /\ full sh'.
Proof.
  intros Hinv Hfe Hno Hdyn Hget Hc.
  assert (Hg : 1 <= fst a <= LAST_ROW /\ 1 <= snd a <= LAST_COLUMN).
  { destruct (dyn_ext sh a Hdyn) as (w0 & h0 & E0). apply on_grid_spec, (proj1 (proj2 Hinv) a w0 h0 E0). }
  assert (One : forall q, in_rect a 1 1 q = true -> q = a).
  { intros q R. rewrite in_rect_11 in R. destruct (pos_eqb_spec a q); congruence. }
  assert (Ha : get sh' a = Some c) by (rewrite Hget, pos_eqb_refl; reflexivity).
  apply (block_inv sh sh' a 1 1 Hinv Hfe Hno Hdyn); try lia.
  - apply blocked_11.
  - intros q R. rewrite in_rect_11 in R. rewrite Hget, R. reflexivity.
  - intros q R N. destruct (N (One q R)).
  - destruct Hc as [(f & v & Kc) | Kc]; [left | right; eauto].
    unfold ext_of, anchor_ext. rewrite Ha, Kc. reflexivity.
Qed.

(* ---- evaluate_cell: clearing the previous extent ------------------------------------------------ *)
Lemma get_clear_own a w h sh q :
  get (clear_own_spills a w h sh) q =
  if in_rect a w h q && (negb (pos_eqb q a) && is_own_spill a (get sh q)) && on_grid q
  then Some (mkcell (style_at sh q) KEmpty) else get sh q.
Proof.
  unfold Spill.clear_own_spills. rewrite <- existsb_rect.
  apply (get_fold_clear (fun p x => negb (pos_eqb p a) && is_own_spill a x)). reflexivity.
Qed.

Lemma clear_own_other a w h sh q :
  is_own_spill a (get sh q) = false -> get (clear_own_spills a w h sh) q = get sh q.
Proof. intros O. rewrite get_clear_own, O, !andb_false_r. reflexivity. Qed.

(* under the invariant the spill cells of [a] lie in its extent, on the grid: the loop meets them all *)
Lemma clear_own_exact sh a w h q :
  spill_inv sh -> ext_of sh a = Some (w, h) ->
  get (clear_own_spills a w h sh) q =
  if is_own_spill a (get sh q) then Some (mkcell (style_at sh q) KEmpty) else get sh q.
Proof.
  intros (Hcov & Hok & _) Ea.
  destruct (is_own_spill a (get sh q)) eqn:O; [|exact (clear_own_other a w h sh q O)].
  destruct (own_spill_elim a _ O) as (cq & vq & Gq & Kq).
  destruct (Hcov q cq _ _ vq Gq Kq) as (w' & h' & Eb & Rb & Nb).
  rewrite <- surjective_pairing in Eb, Rb, Nb. rewrite Ea in Eb. injection Eb as <- <-.
  destruct (Hok a w h Ea) as (_ & _ & Hg & Hr & Hc).
  rewrite get_clear_own, O, Rb, (pos_eqb_neq q a Nb), (rect_on_grid a w h q Hg Hr Hc Rb). reflexivity.
Qed.

(* Emptying the spill cells of [a] keeps the invariant; fullness survives for the other anchors. *)
Lemma clear_own_inv sh a c f w h v :
  spill_inv sh -> full sh -> get sh a = Some c -> c_k c = KDyn f w h v ->
  let sh1 := clear_own_spills a w h sh in
  spill_inv sh1 /\ full_except a sh1 /\ no_own a sh1 /\ get sh1 a = get sh a /\
  (forall q, is_own_spill a (get sh q) = false -> get sh1 q = get sh q).
Proof.
  intros Hinv Hfull G K sh1.
  assert (Hget : forall q, get sh1 q =
            if is_own_spill a (get sh q) then Some (mkcell (style_at sh q) KEmpty) else get sh q).
  { intros q. apply clear_own_exact; [exact Hinv | exact (ext_of_dyn sh a c f w h v G K)]. }
  destruct Hinv as (Hcov & Hok & Hdis).
  assert (X : forall q, ext_of sh1 q = ext_of sh q).
  { intros q. destruct (is_own_spill a (get sh q)) eqn:O.
    - rewrite (own_spill_not_anchor a sh q O). unfold ext_of. rewrite Hget, O. reflexivity.
    - unfold ext_of. rewrite Hget, O. reflexivity. }
  split; [split; [|split]|split; [|split; [|split]]].
  - intros p cp ar ac vp Gp Kp. rewrite X. rewrite Hget in Gp.
    destruct (is_own_spill a (get sh p)); [injection Gp as <-; discriminate | exact (Hcov p cp ar ac vp Gp Kp)].
  - intros b wb hb Eb. rewrite X in Eb. exact (Hok b wb hb Eb).
  - intros a1 a2 w1 h1 w2 h2 q N E1 E2. rewrite X in E1, E2. exact (Hdis a1 a2 w1 h1 w2 h2 q N E1 E2).
  - intros b Nb wb hb q Eb R Nq. rewrite X in Eb. pose proof (Hfull b wb hb q Eb R Nq) as Own.
    rewrite Hget. destruct (is_own_spill a (get sh q)) eqn:O; [|exact Own].
    destruct Nb. exact (own_spill_unique b a _ Own O).
  - intros q. rewrite Hget. destruct (is_own_spill a (get sh q)) eqn:O; [reflexivity | exact O].
  - apply clear_own_other. rewrite G. cbn [is_own_spill]. rewrite K. reflexivity.
  - intros q. apply clear_own_other.
Qed.

(* the state between clearing and writing *)
Lemma clear_own_cleared sh a c f w h v :
  spill_inv sh -> full sh -> get sh a = Some c -> c_k c = KDyn f w h v ->
  let sh1 := clear_own_spills a w h sh in
  spill_inv sh1 /\ full_except a sh1 /\ no_own a sh1 /\ is_dyn sh1 a.
Proof.
  intros Hinv Hfull G K. destruct (clear_own_inv sh a c f w h v Hinv Hfull G K) as (I & F & N & Ga & _).
  refine (conj I (conj F (conj N _))). exists c, f, w, h, v. rewrite Ga. auto.
Qed.

(* on a full sheet, clearing the whole extent of [a] but [a] itself is clearing its own spill cells *)
Lemma clear_rect_full sh a w h q :
  full sh -> ext_of sh a = Some (w, h) -> q <> a ->
  (if in_rect a w h q && on_grid q then Some (mkcell (style_at sh q) KEmpty) else get sh q)
  = get (clear_own_spills a w h sh) q.
Proof.
  intros Hfull Ea N. rewrite get_clear_own, (pos_eqb_neq q a N).
  destruct (in_rect a w h q) eqn:R; [rewrite (Hfull a w h q Ea R N)|]; reflexivity.
Qed.

(* ---- set_cells_with_result ----------------------------------------------------------------------- *)
Lemma get_write_scalar a f s v sh q :
  get (write_scalar a f s v sh) q = if pos_eqb a q then Some (mkcell s (KDyn f 1 1 v)) else get sh q.
Proof. apply get_set. Qed.

(* The two ways the dynamic branch ends.  [WScalar]: only the anchor is written, with extent (1,1);
   for a non-empty array this means #SPILL!, because the block leaves the grid or is blocked. *)
Inductive write_case (a : pos) (f s : Z) (res : result V) (sh sh' : sheet) : Prop :=
| WScalar v : sh' = write_scalar a f s v sh ->
    (forall arr w h, res = RArray arr -> w = Z.of_nat (length (hd [] arr)) -> h = Z.of_nat (length arr) ->
       1 <= w -> 1 <= h ->
       v = spill_err /\
       ~ ((fst a + h - 1 <= LAST_ROW /\ snd a + w - 1 <= LAST_COLUMN) /\ blocked a w h sh = false)) ->
    write_case a f s res sh sh'
| WBlock arr wn w h : res = RArray arr ->
    wn = length (hd [] arr) -> w = Z.of_nat wn -> h = Z.of_nat (length arr) ->
    1 <= w -> 1 <= h -> fst a + h - 1 <= LAST_ROW -> snd a + w - 1 <= LAST_COLUMN ->
    blocked a w h sh = false -> short_row wn arr = false ->
    sh' = write_cells a f s w h (block_cells (fst a) (snd a) wn arr) sh ->
    write_case a f s res sh sh'.

Lemma write_dynamic_cases a f s res sh sh' :
  write_dynamic a f s res sh = Ok sh' -> write_case a f s res sh sh'.
Proof.
  unfold Spill.write_dynamic. destruct (on_grid a); cbn [negb]; [|discriminate].
  destruct res as [v | arr].
  { intros [= <-]. apply (WScalar _ _ _ _ _ _ v); [reflexivity | discriminate]. }
  cbv zeta. set (h := Z.of_nat (length arr)). set (w := Z.of_nat (length (hd [] arr))).
  assert (Sc : forall v,
    (1 <= w -> 1 <= h -> v = spill_err /\
       ~ ((fst a + h - 1 <= LAST_ROW /\ snd a + w - 1 <= LAST_COLUMN) /\ blocked a w h sh = false)) ->
    write_case a f s (RArray arr) sh (write_scalar a f s v sh)).
  { intros v Hv. apply (WScalar _ _ _ _ _ _ v); [reflexivity|]. intros ? ? ? [= <-] -> ->. exact Hv. }
  destruct (Z.eqb_spec h 0); [|destruct (Z.eqb_spec w 0)]; cbn [orb];
    try (intros [= <-]; apply Sc; intros; lia).
  destruct (Z.ltb_spec LAST_ROW (fst a + h - 1)); [|destruct (Z.ltb_spec LAST_COLUMN (snd a + w - 1))];
    cbn [orb]; try (intros [= <-]; apply Sc; intros _ _; split; [reflexivity | lia]).
  destruct (blocked a w h sh) eqn:B.
  { intros [= <-]. apply Sc. intros _ _. split; [reflexivity | intros [_ ?]; discriminate]. }
  destruct (short_row _ arr) eqn:S; intros [= <-].
  apply (WBlock _ _ _ _ _ _ arr _ w h eq_refl eq_refl eq_refl eq_refl); try assumption; try reflexivity; lia.
Qed.

Lemma write_dynamic_inv sh sh' a f s res :
  spill_inv sh -> full_except a sh -> no_own a sh -> is_dyn sh a ->
  write_dynamic a f s res sh = Ok sh' -> spill_inv sh' /\ full sh'.
Proof.
  intros Hinv Hfe Hno Hdyn H.
  apply write_dynamic_cases in H as [v -> _ | arr wn w h _ _ Ew Eh Hw Hh Fr Fc B S ->].
  - apply (anchor_cell_inv sh _ a (mkcell s (KDyn f 1 1 v))); try assumption.
    + apply get_write_scalar.
    + left. exists f, v. reflexivity.
  - apply (block_inv sh _ a w h Hinv Hfe Hno Hdyn); try assumption; subst w h.
    + intros q. apply write_block_out.
    + intros q R N. destruct (write_block_in a f s wn arr sh q S R) as (v & _ & ->).
      unfold new_cell. rewrite (pos_eqb_neq q a N). eapply own_spill_intro; reflexivity.
    + left. apply write_block_anchor; assumption.
Qed.

Lemma eval_anchor_elim a res sh sh' :
  eval_anchor a res sh = Ok sh' ->
  exists c f w h v, get sh a = Some c /\ c_k c = KDyn f w h v /\
    write_dynamic a f (c_s c) res (clear_own_spills a w h sh) = Ok sh'.
Proof.
  unfold Spill.eval_anchor. destruct (get sh a) as [c|]; [|discriminate].
  destruct (c_k c) as [| | |f w h v| |] eqn:K; try discriminate. intros H. exists c, f, w, h, v. auto.
Qed.

Lemma eval_anchor_inv sh sh' a res :
  spill_inv sh -> full sh -> eval_anchor a res sh = Ok sh' -> spill_inv sh' /\ full sh'.
Proof.
  intros Hinv Hfull H. apply eval_anchor_elim in H as (c & f & w & h & v & G & K & H).
  destruct (clear_own_cleared sh a c f w h v Hinv Hfull G K) as (I1 & F1 & N1 & D1).
  exact (write_dynamic_inv _ sh' a f (c_s c) res I1 F1 N1 D1 H).
Qed.

Lemma eval_anchors_inv l : forall sh sh',
  spill_inv sh -> full sh -> eval_anchors l sh = Ok sh' -> spill_inv sh' /\ full sh'.
Proof.
  induction l as [|[a res] l IH]; intros sh sh' Hinv Hfull H; cbn [Spill.eval_anchors] in H.
  - injection H as <-. auto.
  - destruct (eval_anchor a res sh) as [sh1| |] eqn:E; cbn [obind] in H; try discriminate.
    destruct (eval_anchor_inv sh sh1 a res Hinv Hfull E) as [I1 F1]. exact (IH sh1 sh' I1 F1 H).
Qed.

(* ---- C31: exactness of a write --------------------------------------------------------------------- *)
Theorem write_exact a f s arr sh sh' :
  let wn := length (hd [] arr) in let w := Z.of_nat wn in let h := Z.of_nat (length arr) in
  1 <= w -> 1 <= h ->
  write_dynamic a f s (RArray arr) sh = Ok sh' ->
  let fits := fst a + h - 1 <= LAST_ROW /\ snd a + w - 1 <= LAST_COLUMN in
  (fits /\ blocked a w h sh = false ->
     (forall i j, (i < length arr)%nat -> (j < wn)%nat ->
        exists v, elem arr i j = Some v /\
          get sh' (fst a + Z.of_nat i, snd a + Z.of_nat j) =
          Some (if (i =? 0)%nat && (j =? 0)%nat then mkcell s (KDyn f w h v)
                else mkcell (style_at sh (fst a + Z.of_nat i, snd a + Z.of_nat j)) (KSpill (fst a) (snd a) v)))
     /\ (forall q, in_rect a w h q = false -> get sh' q = get sh q))
  /\ (~ fits \/ blocked a w h sh = true ->
     get sh' a = Some (mkcell s (KDyn f 1 1 spill_err)) /\ (forall q, q <> a -> get sh' q = get sh q)).
Proof.
  cbv zeta. intros Hw Hh H.
  apply write_dynamic_cases in H as [v -> Hv | arr' ? ? ? [= <-] -> -> -> _ _ Fr Fc B S ->].
  - destruct (Hv arr _ _ eq_refl eq_refl eq_refl Hw Hh) as [-> Hnot].
    split; [intros Hyes; contradiction | intros _]. split; [|intros q N]; rewrite get_write_scalar.
    + rewrite pos_eqb_refl. reflexivity.
    + rewrite pos_eqb_neq by congruence. reflexivity.
  - split; [intros _ | intros [Hn | Hb]; [destruct Hn; split; assumption | congruence]].
    split; [|intros q; apply write_block_out].
    intros i j Hi Hj. set (q := (fst a + Z.of_nat i, snd a + Z.of_nat j)).
    destruct (write_block_in a f s _ arr sh q S) as (v & Ev & ->); [apply in_rect_spec; cbn [q fst snd]; lia|].
    exists v. cbn [q fst snd] in Ev.
    rewrite !Z.add_simpl_l, !Nat2Z.id in Ev. split; [exact Ev|]. unfold new_cell.
    (* [q] is the anchor exactly when i = j = 0 *)
    replace (pos_eqb q a) with ((i =? 0)%nat && (j =? 0)%nat); [reflexivity|].
    apply eq_true_iff_eq. unfold pos_eqb. cbn [q fst snd].
    rewrite !andb_true_iff, !Z.eqb_eq, !Nat.eqb_eq. lia.
Qed.

Theorem write_never_overwrites a f s res sh sh' p :
  write_dynamic a f s res sh = Ok sh' -> p <> a -> blocks a (get sh p) = true -> get sh' p = get sh p.
Proof.
  intros H N F. apply write_dynamic_cases in H as [v -> _ | arr wn w h _ _ -> -> _ _ _ _ B S ->].
  - rewrite get_write_scalar, pos_eqb_neq by congruence. reflexivity.
  - apply write_block_out. apply not_true_iff_false. intros R.
    rewrite (not_blocked_elim a _ _ sh p B R N) in F. discriminate.
Qed.

Theorem eval_never_overwrites a res sh sh' p :
  eval_anchor a res sh = Ok sh' -> p <> a -> blocks a (get sh p) = true -> get sh' p = get sh p.
Proof.
  intros H N F. apply eval_anchor_elim in H as (c & f & w & h & v & _ & _ & H).
  pose proof (clear_own_other a w h sh p (blocks_not_own a _ F)) as X. rewrite <- X in *.
  exact (write_never_overwrites a f (c_s c) res _ sh' p H N F).
Qed.

(* ---- C31: no stale spill cell ---------------------------------------------------------------------- *)
Theorem no_stale a res sh sh' :
  spill_inv sh -> full sh -> eval_anchor a res sh = Ok sh' ->
  forall q c v, get sh' q = Some c -> c_k c = KSpill (fst a) (snd a) v ->
  exists arr, res = RArray arr /\
    ext_of sh' a = Some (Z.of_nat (length (hd [] arr)), Z.of_nat (length arr)) /\
    in_rect a (Z.of_nat (length (hd [] arr))) (Z.of_nat (length arr)) q = true /\ q <> a /\
    elem arr (Z.to_nat (fst q - fst a)) (Z.to_nat (snd q - snd a)) = Some v.
Proof.
  intros Hinv Hfull H q cq v Gq Kq. apply eval_anchor_elim in H as (c & f & w & h & v0 & G & K & H).
  destruct (clear_own_cleared sh a c f w h v0 Hinv Hfull G K) as (_ & _ & N1 & _).
  set (sh1 := clear_own_spills a w h sh) in *.
  (* the cell is a spill cell of [a], and the cleared state has none: the write put it there *)
  pose proof (own_spill_intro a _ cq v Gq Kq) as Own.
  apply write_dynamic_cases in H as [v1 -> _ | arr wn wz hz -> -> -> -> Hw Hh _ _ _ S ->].
  - rewrite get_write_scalar in Own. destruct (pos_eqb a q); [discriminate|]. rewrite N1 in Own. discriminate.
  - exists arr. split; [reflexivity|]. split; [apply write_block_anchor; assumption|].
    destruct (in_rect a _ _ q) eqn:R; [|rewrite write_block_out, N1 in Own by exact R; discriminate].
    split; [reflexivity|]. destruct (write_block_in a f (c_s c) _ arr sh1 q S R) as (x & Ex & Gx).
    rewrite Gx in Gq. injection Gq as <-. unfold new_cell in Kq.
    destruct (pos_eqb_spec q a) as [->|Nq]; [discriminate|]. injection Kq as <-. auto.
Qed.

(* ---- reset_dynamic_array_spills ------------------------------------------------------------------ *)
Lemma get_reset_one a f s w h sh q :
  get (reset_one a f s w h sh) q =
  if pos_eqb a q then Some (mkcell s (KDyn f 1 1 uneval))
  else if in_rect a w h q && on_grid q then Some (mkcell (style_at sh q) KEmpty) else get sh q.
Proof.
  unfold Spill.reset_one.
  rewrite (get_fold_clear (fun p _ => negb (pos_eqb p a)) (Spill.clear_but dflt a)), existsb_rect.
  2:{ intros sh0 p. unfold Spill.clear_but. destruct (pos_eqb p a); reflexivity. }
  unfold clr, Spill.style_at. rewrite get_set, (pos_eqb_sym q a).
  destruct (pos_eqb a q); cbn [negb]; rewrite ?andb_false_r, ?andb_true_r; reflexivity.
Qed.

Lemma dyn_info_ext sh p f s w h : dyn_info sh p = Some (f, s, w, h) ->
  exists c v, get sh p = Some c /\ c_k c = KDyn f w h v.
Proof.
  unfold dyn_info. destruct (get sh p) as [c|]; [|discriminate]. destruct (c_k c) eqn:K; try discriminate.
  intros [= <- _ <- <-]. eauto.
Qed.

Lemma reset_one_inv sh a f0 s0 f s w h :
  spill_inv sh -> full sh -> dyn_info sh a = Some (f0, s0, w, h) ->
  spill_inv (reset_one a f s w h sh) /\ full (reset_one a f s w h sh).
Proof.
  intros Hinv Hfull D. destruct (dyn_info_ext sh a f0 s0 w h D) as (c & v0 & G & K).
  destruct (clear_own_cleared sh a c f0 w h v0 Hinv Hfull G K) as (I1 & F1 & N1 & D1).
  apply (anchor_cell_inv _ _ a (mkcell s (KDyn f 1 1 uneval)) I1 F1 N1 D1); [|left; exists f, uneval; reflexivity].
  intros q. rewrite get_reset_one.
  destruct (pos_eqb_spec a q) as [|N]; [reflexivity|].
  apply clear_rect_full; [exact Hfull | exact (ext_of_dyn sh a c f0 w h v0 G K) | congruence].
Qed.

(* other anchors are not touched *)
Lemma reset_one_frame sh a f0 s0 f s w h b i :
  full sh -> dyn_info sh a = Some (f0, s0, w, h) -> b <> a -> dyn_info sh b = Some i ->
  dyn_info (reset_one a f s w h sh) b = Some i.
Proof.
  intros Hfull D Nb Db. unfold dyn_info. rewrite get_reset_one, pos_eqb_neq by congruence.
  destruct (in_rect a w h b) eqn:R; [exfalso | exact Db].
  destruct (dyn_info_ext sh a f0 s0 w h D) as (c & v0 & G & K).
  pose proof (Hfull a w h b (ext_of_dyn sh a c f0 w h v0 G K) R Nb) as Own.
  apply own_spill_elim in Own as (cb & vb & Gb & Kb). unfold dyn_info in Db. rewrite Gb, Kb in Db. discriminate.
Qed.

(* the anchors still to be processed are as they were collected: no reset touches another anchor *)
Lemma reset_from_inv sh0 order : forall sh,
  NoDup order -> spill_inv sh -> full sh ->
  (forall p i, In p order -> dyn_info sh0 p = Some i -> dyn_info sh p = Some i) ->
  spill_inv (reset_spills_from sh0 order sh) /\ full (reset_spills_from sh0 order sh).
Proof.
  unfold Spill.reset_spills_from.
  induction order as [|p order IH]; intros sh Hnd Hinv Hfull Hsame; cbn [fold_left]; [auto|].
  apply NoDup_cons_iff in Hnd as [Hnotin Hnd].
  assert (Hrest : forall p' i, In p' order -> dyn_info sh0 p' = Some i -> dyn_info sh p' = Some i).
  { intros p' i Hin'. apply Hsame. right. exact Hin'. }
  destruct (dyn_info sh0 p) as [[[[f s] w] h]|] eqn:D; [|apply IH; assumption].
  pose proof (Hsame p _ (or_introl eq_refl) D) as Dp.
  destruct (reset_one_inv sh p f s f s w h Hinv Hfull Dp) as [I1 F1].
  apply IH; try assumption. intros p' i Hin' D'.
  apply (reset_one_frame sh p f s f s w h p' i Hfull Dp); [intros ->; contradiction | auto].
Qed.

Theorem reset_spills_inv sh order :
  NoDup order -> spill_inv sh -> full sh ->
  spill_inv (reset_spills order sh) /\ full (reset_spills order sh).
Proof. intros Hnd Hinv Hfull. apply reset_from_inv; auto. Qed.

(* ---- prepare_cell_for_user_input ------------------------------------------------------------------- *)
Theorem prepare_inv sh sh' p :
  spill_inv sh -> full sh -> prepare_for_input p sh = Ok sh' -> spill_inv sh' /\ full sh'.
Proof.
  intros Hinv Hfull H. unfold Spill.prepare_for_input in H.
  destruct (on_grid p) eqn:Hg; cbn [negb] in H; [|discriminate].
  destruct (get sh p) as [c|] eqn:G; [|injection H as <-; auto].
  destruct (c_k c) as [|v|f v|f w h v|f w h v|ar ac v] eqn:K; try (injection H as <-; split; assumption).
  - (* dynamic anchor: the whole extent, anchor included, is cleared *)
    injection H as <-. pose proof (ext_of_dyn sh p c f w h v G K) as Ea.
    destruct (clear_own_cleared sh p c f w h v Hinv Hfull G K) as (I1 & F1 & N1 & D1).
    apply (anchor_cell_inv _ _ p (mkcell (c_s c) KEmpty) I1 F1 N1 D1); [|right; reflexivity]. intros q.
    rewrite (get_fold_clear (fun _ _ => true) (Spill.clear_contents dflt)), existsb_rect by reflexivity.
    unfold clr. rewrite andb_true_r. destruct (pos_eqb_spec p q) as [<-|N].
    + destruct (proj1 (proj2 Hinv) p w h Ea) as (Hw & Hh & _).
      rewrite in_rect_anchor, Hg, G by assumption. reflexivity.
    + apply clear_rect_full; [exact Hfull | exact Ea | congruence].
  - destruct ((1 <? w) || (1 <? h)); [discriminate | injection H as <-; auto].
  - (* a spill cell of a dynamic anchor: the anchor is reset *)
    destruct (get sh (ar, ac)) as [ca|] eqn:Ga; [|discriminate].
    destruct (c_k ca) as [| | |f w h v0| |] eqn:Ka; try discriminate.
    injection H as <-. apply (reset_one_inv sh (ar, ac) f (c_s ca)); try assumption.
    unfold dyn_info. rewrite Ga, Ka. reflexivity.
Qed.

(* ---- the executable predicates decide the invariant ------------------------------------------------ *)
Lemma rects_disjoint_b_sound a1 w1 h1 a2 w2 h2 q :
  rects_disjoint_b a1 w1 h1 a2 w2 h2 = true -> in_rect a1 w1 h1 q = true -> in_rect a2 w2 h2 q = true -> False.
Proof. unfold rects_disjoint_b. rewrite !in_rect_spec, !orb_true_iff, !Z.leb_le. lia. Qed.

Lemma rects_disjoint_b_complete a1 w1 h1 a2 w2 h2 :
  1 <= w1 -> 1 <= h1 -> 1 <= w2 -> 1 <= h2 ->
  rects_disjoint_b a1 w1 h1 a2 w2 h2 = false ->
  exists q, in_rect a1 w1 h1 q = true /\ in_rect a2 w2 h2 q = true.
Proof.
  intros ? ? ? ? D. exists (Z.max (fst a1) (fst a2), Z.max (snd a1) (snd a2)).
  unfold rects_disjoint_b in D. rewrite !orb_false_iff, !Z.leb_gt in D.
  rewrite !in_rect_spec. cbn [fst snd]. lia.
Qed.

(* [dflt] is not used by the next two; Sheet/WfProofs.v passes it. *)
Theorem spill_exact_b_sound sh : spill_exact_b sh = true -> spill_inv sh.
Proof using dflt.
  unfold spill_exact_b. rewrite !andb_true_iff, !forallb_forall. intros [[Hc Ho] Hd].
  assert (An : forall p e, ext_of sh p = Some e -> In p (filter (is_anchor_b sh) (keys sh))).
  { intros p e Ep. apply filter_In. split; [exact (ext_in_keys sh p e Ep)|].
    unfold is_anchor_b. rewrite Ep. reflexivity. }
  split; [|split].
  - intros p c ar ac v G K. pose proof (Hc p (get_in_keys sh p c G)) as X.
    unfold spill_covered_b in X. rewrite G, K in X.
    destruct (ext_of sh (ar, ac)) as [[w h]|]; [|discriminate]. exists w, h.
    apply andb_true_iff in X as [X1 X2]. destruct (pos_eqb_spec p (ar, ac)); [discriminate | auto].
  - intros a w h Ea. pose proof (Ho a (An a _ Ea)) as X. unfold ext_ok_b in X. rewrite Ea in X.
    rewrite !andb_true_iff, !Z.leb_le in X. repeat split; apply X.
  - intros a1 a2 w1 h1 w2 h2 q N E1 E2.
    pose proof (Hd a1 (An a1 _ E1)) as X. rewrite forallb_forall in X. specialize (X a2 (An a2 _ E2)).
    unfold disjoint_pair_b in X. rewrite E1, E2, (pos_eqb_neq a1 a2 N) in X.
    exact (rects_disjoint_b_sound a1 w1 h1 a2 w2 h2 q X).
Qed.

Theorem spill_exact_b_complete sh : spill_inv sh -> spill_exact_b sh = true.
Proof using dflt.
  intros (Hcov & Hok & Hdis). unfold spill_exact_b. rewrite !andb_true_iff, !forallb_forall. split; [split|].
  - intros p _. unfold spill_covered_b. destruct (get sh p) as [c|] eqn:G; [|reflexivity].
    destruct (c_k c) eqn:K; try reflexivity.
    destruct (Hcov p c ar ac v G K) as (w & h & E & R & N). rewrite E, R, (pos_eqb_neq _ _ N). reflexivity.
  - intros p _. unfold ext_ok_b. destruct (ext_of sh p) as [[w h]|] eqn:E; [|reflexivity].
    destruct (Hok p w h E) as (H1 & H2 & H3 & H4 & H5). rewrite H3.
    rewrite !andb_true_iff, !Z.leb_le. auto.
  - intros p _. apply forallb_forall. intros q _. unfold disjoint_pair_b.
    destruct (pos_eqb_spec p q) as [|N]; [reflexivity|]. cbn [orb].
    destruct (ext_of sh p) as [[w1 h1]|] eqn:E1; [|reflexivity].
    destruct (ext_of sh q) as [[w2 h2]|] eqn:E2; [|reflexivity].
    destruct (rects_disjoint_b p w1 h1 q w2 h2) eqn:D; [reflexivity|]. exfalso.
    destruct (Hok p w1 h1 E1) as (? & ? & _). destruct (Hok q w2 h2 E2) as (? & ? & _).
    destruct (rects_disjoint_b_complete p w1 h1 q w2 h2) as (x & R1 & R2); try assumption.
    exact (Hdis p q w1 h1 w2 h2 x N E1 E2 R1 R2).
Qed.

Theorem spill_full_b_sound sh : spill_full_b sh = true -> full sh.
Proof.
  unfold spill_full_b. rewrite forallb_forall. intros H a w h q Ea R N.
  pose proof (H a (ext_in_keys sh a _ Ea)) as X. unfold full_at_b in X. rewrite Ea, forallb_forall in X.
  specialize (X q (proj2 (in_rect_iff a w h q) R)). rewrite (pos_eqb_neq q a N) in X. exact X.
Qed.

Theorem spill_full_b_complete sh : full sh -> spill_full_b sh = true.
Proof.
  intros H. unfold spill_full_b. apply forallb_forall. intros a _. unfold full_at_b.
  destruct (ext_of sh a) as [[w h]|] eqn:E; [|reflexivity]. apply forallb_forall. intros q Hq.
  apply in_rect_iff in Hq. destruct (pos_eqb_spec q a) as [|N]; [reflexivity|]. exact (H a w h q E Hq N).
Qed.

(* the empty sheet, and a sheet without arrays *)
Lemma inv_no_arrays sh :
  (forall p c, get sh p = Some c -> match c_k c with KDyn _ _ _ _ | KCse _ _ _ _ | KSpill _ _ _ => False | _ => True end) ->
  spill_inv sh /\ full sh.
Proof.
  intros H.
  assert (E : forall p, ext_of sh p = None).
  { intros p. unfold ext_of, anchor_ext. destruct (get sh p) as [c|] eqn:G; [|reflexivity].
    specialize (H p c G). destruct (c_k c); try reflexivity; contradiction. }
  split; [split; [|split]|].
  2-4: unfold exts_ok, exts_disjoint, full, full_at; intros; rewrite E in *; discriminate.
  intros p c ar ac v G K. specialize (H p c G). rewrite K in H. contradiction.
Qed.

End SpillProofs.
