(* Eval/SinkProofs.v — C08 as a theorem about the SINK set_cells_with_result ([write]), not
   about the ~495 functions that may have produced the result: the scalar branch keeps the
   store free of non-finite numbers for EVERY result; the array branches (dynamic, CSE and the
   1x1 coercion) and the typed path do so only if what they are given is finite. *)
From IronCalc Require Import Base.Prelude Eval.NumOps Eval.Value Eval.Coerce Eval.Ops Eval.Funs
  Eval.Eval Eval.Store Eval.StoreProofs.

Section Sink.
Context {num : Type} (N : NumOps num).
Notation value := (value num). Notation content := (content (num:=num)). Notation store := (store (num:=num)).
(* the one law of the number type the proofs need: 0.0 is finite *)
Hypothesis Hzero : nis_finite N (nzero N) = true.

Lemma finite_set_cont st c x : finite_store N st -> content_finite N x = true -> finite_store N (set_cont st c x).
Proof.
  intros Hf Hx d. cbn [set_cont cont]. unfold upd. destruct (cref_eqb c d); [exact Hx | apply Hf].
Qed.

Lemma fold_left_inv {A B} (P : A -> Prop) (f : A -> B -> A) l : (forall a b, P a -> P (f a b)) -> forall a, P a -> P (fold_left f l a).
Proof. intro H. induction l as [|b l IH]; intros a Ha; cbn [fold_left]; [exact Ha | apply IH, H, Ha]. Qed.

Lemma fv_to_spill_finite fv : fv_finite N fv = true -> sv_finite N (fv_to_spill fv) = true.
Proof. destruct fv; cbn; auto. Qed.

Lemma write_scalar_finite c cell fv st : fv_finite N fv = true -> finite_store N st -> finite_store N (write_scalar c cell fv st).
Proof.
  intros Hfv Hst. unfold write_scalar. destruct cell as [| | | | |f v|[|] w h f v|]; try exact Hst;
    (apply finite_set_cont; [|exact Hfv]); try exact Hst.
  (* CSE: the whole area is filled *)
  apply fold_left_inv; [|exact Hst]. intros s d Hs. destruct (is_anchor c d); [exact Hs|].
  apply finite_set_cont; [exact Hs | apply fv_to_spill_finite, Hfv].
Qed.

(* the safety belt: whatever the scalar result, the stored value is finite *)
Lemma scalar_fvalue_finite r fv : scalar_fvalue N r = Some fv -> fv_finite N fv = true.
Proof.
  destruct r; cbn [scalar_fvalue]; intro H; inversion H; subst; cbn [fv_finite]; try reflexivity; try exact Hzero.
  destruct (nis_finite N n) eqn:E; cbn [fv_finite]; [exact E | reflexivity].
Qed.

(* the array branches (since /repo e9b497e): every element goes through afv / asv, which carry the guard *)
Lemma afv_finite x : fv_finite N (afv N x) = true.
Proof. destruct x; cbn; auto. destruct (nis_finite N n) eqn:E; cbn; auto. Qed.
Lemma asv_finite x : sv_finite N (asv N x) = true.
Proof. destruct x; cbn; auto. destruct (nis_finite N n) eqn:E; cbn; auto. Qed.

Lemma write_keeps_finite c cell r st : finite_store N st ->
  match write N c cell r st with Some st' => finite_store N st' | None => True end.
Proof.
  intro Hst. unfold write. destruct (formula_of cell) as [f|] eqn:Ef; [|exact Hst].
  (* the scalar branch: the safety belt *)
  destruct r as [| | | | | | |a];
    try (destruct (scalar_fvalue N _) as [fv|] eqn:Es; [|exact I];
         apply write_scalar_finite; [eapply scalar_fvalue_finite; exact Es | exact Hst]).
  (* an array without rows or columns *)
  destruct (_ || _); [apply write_scalar_finite; [reflexivity | exact Hst]|].
  destruct cell as [| | | | |f0 v0|[|] w h f0 v0|]; try discriminate Ef.
  - (* a plain formula: the 1x1 coercion *)
    apply finite_set_cont; [exact Hst|]. cbn [content_finite].
    destruct (_ && _); [|reflexivity]. destruct (get_value_from_array a 1 1); [apply afv_finite | reflexivity].
  - (* dynamic: leaving the sheet and a blocked spill are scalar writes of #SPILL! *)
    destruct (_ || _); [apply write_scalar_finite; [reflexivity | exact Hst]|].
    destruct (existsb _ _); [apply write_scalar_finite; [reflexivity | exact Hst]|].
    apply fold_left_inv; [|exact Hst]. intros s d Hs.
    destruct (get_value_from_array a _ _); [|exact Hs].
    destruct (is_anchor c d); apply finite_set_cont; try exact Hs; [apply afv_finite | apply asv_finite].
  - (* CSE *)
    apply fold_left_inv; [|exact Hst]. intros s d Hs.
    destruct (is_anchor c d); apply finite_set_cont; try exact Hs; cbn [content_finite];
      destruct (get_value_from_array a _ _); try reflexivity; [apply afv_finite | apply asv_finite].
Qed.

(* THE SINK THEOREM: for EVERY result, scalar or array, whatever produced it *)
Theorem write_finite c cell r st st' :
  write N c cell r st = Some st' -> finite_store N st -> finite_store N st'.
Proof. intros Hw Hst. pose proof (write_keeps_finite c cell r st Hst) as H. rewrite Hw in H. exact H. Qed.

Definition is_array (r : value) : Prop := match r with VArray _ => True | _ => False end.

(* the scalar branch alone *)
Theorem write_scalar_branch_finite c cell r st st' :
  ~ is_array r -> write N c cell r st = Some st' -> finite_store N st -> finite_store N st'.
Proof. intros _. apply write_finite. Qed.

(* the typed path (after /repo 6e3cec0): a recognised value that is not finite is stored as text *)
Theorem type_number_finite c t st : finite_store N st -> finite_store N (type_number N c t st).
Proof.
  intro Hst. unfold type_number. destruct (nof_text N t) as [v|] eqn:E.
  - destruct (nis_finite N v) eqn:Ef; apply finite_set_cont; try exact Hst; [cbn; exact Ef | reflexivity].
  - apply finite_set_cont; [exact Hst | reflexivity].
Qed.

(* the API write (after /repo 0aeb22c): Err on a non-finite value, otherwise the value is stored *)
Theorem api_set_number_finite c v st st' :
  api_set_number N c v st = Some st' -> finite_store N st -> finite_store N st'.
Proof.
  unfold api_set_number. destruct (nis_finite N v) eqn:E; [|discriminate].
  intros H Hst. injection H as <-. apply finite_set_cont; [exact Hst | exact E].
Qed.
Theorem api_set_number_rejects c v st : nis_finite N v = false -> api_set_number N c v st = None.
Proof. intro E. unfold api_set_number. rewrite E. reflexivity. Qed.

(* the import conversion (after /repo 3c03706): whatever the text of <v>, the number is finite *)
Theorem import_number_finite t : nis_finite N (import_number N t) = true.
Proof.
  unfold import_number. destruct (nof_text_strict N _) as [v|]; [|exact Hzero].
  destruct (nis_finite N v) eqn:E; [exact E | exact Hzero].
Qed.
Theorem import_cell_finite c k t st : finite_store N st -> finite_store N (import_cell N c k t st).
Proof.
  intro Hst. apply finite_set_cont; [exact Hst|]. destruct k; cbn; apply import_number_finite.
Qed.

End Sink.

(* ---- the former refutations (F09, F09b), now examples of the guard; bounded toy numbers (overflow = non-finite) ---- *)
Definition bz (z : Z) : option Z := Some z.
Definition A1 : cref := mkref 0 1 1.
(* ={MAX,1}*10 as a dynamic formula in A1, spilling to B1 *)
Definition wb_array : workbook (num:=option Z) :=
  [(A1, CArrayFormula true 1 1 (EBin OMul (EArray [[SNum (bz zmax); SNum (bz 1)]]) (ENum (bz 10))) FUnevaluated)].
Lemma guarded_array_dynamic :
  no_nonfinite_b BOps [A1; mkref 0 1 2] (evaluate BOps [A1] wb_array) = true /\
  value_at (evaluate BOps [A1] wb_array) A1 = VErr ENUM /\ value_at (evaluate BOps [A1] wb_array) (mkref 0 1 2) = VNum (Some 10).
Proof. vm_compute. repeat split; reflexivity. Qed.
(* the same formula entered as a CSE formula over A1:B1 *)
Definition wb_cse : workbook (num:=option Z) :=
  [(A1, CArrayFormula false 2 1 (EBin OMul (EArray [[SNum (bz zmax); SNum (bz 1)]]) (ENum (bz 10))) FUnevaluated);
   (mkref 0 1 2, CString [])].
Lemma guarded_array_cse :
  no_nonfinite_b BOps [A1; mkref 0 1 2] (evaluate BOps [A1] wb_cse) = true /\
  value_at (evaluate BOps [A1] wb_cse) A1 = VErr ENUM /\ value_at (evaluate BOps [A1] wb_cse) (mkref 0 1 2) = VNum (Some 10).
Proof. vm_compute. repeat split; reflexivity. Qed.
(* a plain formula cell whose result is a 1x1 array: the coercion at model.rs:1066 *)
Definition wb_1x1 : workbook (num:=option Z) :=
  [(A1, CFormula (EBin OMul (EArray [[SNum (bz zmax)]]) (ENum (bz 10))) FUnevaluated)].
Lemma guarded_coerce_1x1 :
  no_nonfinite_b BOps [A1] (evaluate BOps [A1] wb_1x1) = true /\ value_at (evaluate BOps [A1] wb_1x1) A1 = VErr ENUM.
Proof. vm_compute. split; reflexivity. Qed.
(* the scalar form of the same computation is caught by the safety belt *)
Definition wb_scalar : workbook (num:=option Z) := [(A1, CFormula (EBin OMul (ENum (bz zmax)) (ENum (bz 10))) FUnevaluated)].
Lemma scalar_guard_example :
  value_at (evaluate BOps [A1] wb_scalar) A1 = VErr ENUM.
Proof. vm_compute. reflexivity. Qed.
(* typing a number the recogniser turns into a non-finite value ("9999999" > zmax): stored as text (was: stored
   as a non-finite number, finding F08, repaired by /repo 6e3cec0) *)
Lemma typed_overflow_is_text :
  cont (type_number BOps A1 [57;57;57;57;57;57;57] (store_of [])) A1 = CString [57;57;57;57;57;57;57] /\
  no_nonfinite_b BOps [A1] (type_number BOps A1 [57;57;57;57;57;57;57] (store_of [])) = true /\
  cont (type_number BOps A1 [57;57] (store_of [])) A1 = CNumber (Some 99).
Proof. vm_compute. repeat split; reflexivity. Qed.

(* the API and the importer on the toy numbers: an overflowing value is refused / read as 0 *)
Lemma api_import_examples :
  api_set_number BOps A1 None (store_of []) = None /\
  cont (import_cell BOps A1 ImpNumberCell (Some [57;57;57;57;57;57;57]) (store_of [])) A1 = CNumber (Some 0) /\
  cont (import_cell BOps A1 ImpNumberCell (Some [57;57]) (store_of [])) A1 = CNumber (Some 99) /\
  cont (import_cell BOps A1 ImpNumberCell None (store_of [])) A1 = CNumber (Some 0).
Proof. vm_compute. repeat split; reflexivity. Qed.
