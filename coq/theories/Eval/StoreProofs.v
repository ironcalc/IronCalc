(* Eval/StoreProofs.v — C05/C07 for workbooks of plain cells (literals and ordinary formula
   cells): on an acyclic workbook whose reference results are storable as they are, the
   memoising store evaluator computes the reference semantics, whatever the order of cells. *)
From IronCalc Require Import Base.Prelude Eval.NumOps Eval.Value Eval.Coerce Eval.Ops Eval.Funs
  Eval.Eval Eval.Store Eval.Denote Eval.EvalProofs.

Lemma cref_eqb_eq a b : cref_eqb a b = true <-> a = b.
Proof.
  unfold cref_eqb. destruct a, b; cbn. rewrite !andb_true_iff, !Z.eqb_eq. split.
  - intros [[-> ->] ->]. reflexivity.
  - intro H; inversion H; auto.
Qed.
Lemma cref_eqb_spec a b : reflect (a = b) (cref_eqb a b).
Proof. apply iff_reflect. symmetry. apply cref_eqb_eq. Qed.
Lemma upd_same {A} (m : cref -> A) c x : upd m c x c = x.
Proof. unfold upd. destruct (cref_eqb_spec c c); congruence. Qed.
Lemma upd_other {A} (m : cref -> A) c d x : c <> d -> upd m c x d = m d.
Proof. intro H. unfold upd. destruct (cref_eqb_spec c d); congruence. Qed.

(* a workbook cell is empty or one of the listed bindings *)
Lemma lookup_cases {num} (wb : workbook (num:=num)) c : lookup wb c = CEmpty \/ In (c, lookup wb c) wb.
Proof.
  induction wb as [|[d x] wb IH]; cbn [lookup]; [left; reflexivity|].
  destruct (cref_eqb_spec d c) as [->|]; [right; left; reflexivity | destruct IH; [left | right; right]; assumption].
Qed.

Section Plain.
Context {num : Type} (N : NumOps num).
Notation value := (value num). Notation ast := (ast num).
Notation content := (content (num:=num)). Notation store := (store (num:=num)).

Definition plain_content (x : content) : Prop :=
  match x with CArrayFormula _ _ _ _ _ | CSpill _ _ _ => False | _ => True end.
(* what the user entered: the stored value of a formula cell is not an input *)
Definition input_of (x : content) : content :=
  match x with CFormula f _ => CFormula f FUnevaluated | other => other end.
Definition same_inputs (k1 k2 : cref -> content) : Prop := forall c, input_of (k1 c) = input_of (k2 c).

(* same input: the same content, up to the stored value of a formula cell *)
Lemma input_of_eq x y : input_of x = input_of y ->
  match x with CFormula f _ => exists w, y = CFormula f w | _ => y = x end.
Proof. destruct x, y; cbn; intro H; try discriminate; inversion H; eauto. Qed.

Lemma not_range_of_fvalue v : not_range (of_fvalue (num:=num) v).
Proof. destruct v; exact I. Qed.
Lemma not_range_get_cell_value x : not_range (get_cell_value (num:=num) x).
Proof. destruct x; cbn; try exact I; try apply not_range_of_fvalue. destruct v; exact I. Qed.
Lemma not_range_denote k cont c : not_range (denote_fuel N k cont c).
Proof. destruct k; cbn [denote_fuel]; [exact I|]. destruct (cont c); try apply not_range_get_cell_value. apply not_range_of_fvalue. Qed.

(* two environments that agree on the cells a formula mentions give the same result, and
   that result is not a range: the relational lemma with the trivial state on both sides *)
Lemma result_of_rel env1 env2 anchor f :
  (forall d, In d (refs f) -> env1 d = env2 d) -> (forall d, not_range (env1 d)) ->
  result_of N env1 anchor f = result_of N env2 anchor f /\ not_range (result_of N env1 anchor f).
Proof.
  intros Hagree Hnr.
  destruct (eval_formula_rel N (fun _ _ : unit => True) (fun d => env1 d = env2 d)
              (fun c s => (env1 c, s)) (fun c s => (env2 c, s))
              (fun c Hc _ _ _ => conj Hc (conj I (Hnr c))) anchor f Hagree tt tt I) as [H1 [_ H2]].
  exact (conj H1 H2).
Qed.
Lemma not_range_result_of env anchor f : (forall d, not_range (env d)) -> not_range (result_of N env anchor f).
Proof. intro Hnr. apply (result_of_rel env env); auto. Qed.

(* one step of the reference semantics depends on the input of the cell and on the
   reference values of the cells its formula mentions *)
Lemma denote_fuel_ext k1 k2 cont1 cont2 c :
  input_of (cont1 c) = input_of (cont2 c) ->
  (forall f v d, cont1 c = CFormula f v -> In d (refs f) -> denote_fuel N k1 cont1 d = denote_fuel N k2 cont2 d) ->
  denote_fuel N (Datatypes.S k1) cont1 c = denote_fuel N (Datatypes.S k2) cont2 c.
Proof.
  intros Hin Hd. apply input_of_eq in Hin. cbn [denote_fuel].
  destruct (cont1 c) eqn:E1; try (rewrite Hin; reflexivity). destruct Hin as [w ->].
  f_equal. f_equal. apply result_of_rel; [intros d Hr; exact (Hd _ _ d eq_refl Hr) | intro; apply not_range_denote].
Qed.

(* the reference semantics ignores the stored values of formula cells *)
Lemma denote_same_inputs k k1 k2 : same_inputs k1 k2 -> forall c, denote_fuel N k k1 c = denote_fuel N k k2 c.
Proof.
  intro Hs. induction k as [|k IH]; intro c; [reflexivity|].
  apply denote_fuel_ext; [apply Hs | intros; apply IH].
Qed.

Variable cont0 : cref -> content.
Hypothesis Hplain : forall c, plain_content (cont0 c).
Variable rank : cref -> nat.
Hypothesis Hrank : forall c f v d, cont0 c = CFormula f v -> In d (refs f) -> (rank d < rank c)%nat.

Lemma denote_stable k1 : forall k2 c, (rank c < k1)%nat -> (rank c < k2)%nat ->
  denote_fuel N k1 cont0 c = denote_fuel N k2 cont0 c.
Proof.
  induction k1 as [|k1 IH]; intros [|k2] c H1 H2; try lia.
  apply denote_fuel_ext; [reflexivity|]. intros f v d Ec Hd. pose proof (Hrank c f v d Ec Hd). apply IH; lia.
Qed.

(* the reference value of a cell *)
Definition dn (c : cref) : value := denote_fuel N (Datatypes.S (rank c)) cont0 c.
Lemma dn_fuel k c : (rank c < k)%nat -> denote_fuel N k cont0 c = dn c.
Proof. intro H. apply denote_stable; lia. Qed.
Lemma not_range_dn c : not_range (dn c). Proof. apply not_range_denote. Qed.

Lemma dn_formula c f v : cont0 c = CFormula f v -> dn c = of_fvalue (sink_plain N (result_of N dn c f)).
Proof.
  intro Ec. unfold dn at 1. cbn [denote_fuel]. rewrite Ec. f_equal. f_equal.
  apply result_of_rel; [|intro; apply not_range_denote].
  intros d Hd. apply dn_fuel. exact (Hrank c f v d Ec Hd).
Qed.
Lemma dn_literal c : formula_of (cont0 c) = None -> dn c = get_cell_value (cont0 c).
Proof. intro H. unfold dn. cbn [denote_fuel]. destruct (cont0 c); try reflexivity. discriminate. Qed.

(* every formula's reference result survives the sink unchanged: it is not an empty value
   (stored as 0) and not a non-finite number (stored as #NUM!) *)
Definition stable_result (r : value) : Prop := of_fvalue (sink_plain N r) = returned false r.
Hypothesis Hstorable : forall c f v, cont0 c = CFormula f v -> stable_result (result_of N dn c f).

(* evaluation keeps what the user entered and has not run out of fuel *)
Definition inputs_ok (s : store) : Prop := same_inputs cont0 (cont s) /\ oof s = false.

(* a cell of a store with the workbook's inputs is a literal, stored as entered, or a formula cell *)
Lemma plain_cell_cases s c : same_inputs cont0 (cont s) ->
  (formula_of (cont0 c) = None /\ cont s c = cont0 c) \/
  (exists f v0 v, cont0 c = CFormula f v0 /\ cont s c = CFormula f v).
Proof.
  intro Hs. pose proof (input_of_eq _ _ (Hs c)) as H. pose proof (Hplain c) as Hp.
  destruct (cont0 c); try contradiction; try (left; split; [reflexivity | exact H]).
  destruct H as [w H]. right. eauto.
Qed.

Lemma evaluate_cell_literal k c s : formula_of (cont0 c) = None -> cont s c = cont0 c ->
  evaluate_cell N (Datatypes.S k) c s = (get_cell_value (cont0 c), s).
Proof.
  intros Hf Ec. cbn [evaluate_cell]. rewrite Ec. pose proof (Hplain c).
  destruct (cont0 c); try reflexivity; try discriminate; contradiction.
Qed.

Lemma not_range_returned b r : not_range r -> not_range (returned (num:=num) b r).
Proof.
  destruct r as [| | | | | | |a]; cbn [returned]; try exact (fun H => H). intros _.
  destruct (_ && _); [exact I|]. destruct (_ || _); [exact I|]. destruct a as [|[|x ?] ?]; try exact I. destruct x; exact I.
Qed.

Lemma write_plain c f v r st : not_range r ->
  write N c (CFormula f v) r st = Some (set_cont st c (CFormula f (sink_plain N r))).
Proof.
  intro Hr. unfold write. cbn [formula_of]. destruct r; cbn [scalar_fvalue write_scalar sink_plain]; try reflexivity; try contradiction.
  destruct ((arr_rows a =? 0)%nat || (arr_cols a =? 0)%nat); reflexivity.
Qed.

Lemma inputs_ok_store s c f v0 fv : inputs_ok s -> cont0 c = CFormula f v0 -> inputs_ok (set_cont s c (CFormula f fv)).
Proof.
  intros [Hi Ho] E0. split; [|exact Ho]. intro d. cbn [cont set_cont]. unfold upd.
  destruct (cref_eqb_spec c d) as [<-|]; [rewrite E0; reflexivity | apply Hi].
Qed.

(* marks with the property [P] keep it: an evaluation of [c] that sets its Evaluating mark, runs the
   formula and stores the result only adds marks *)
Definition keeps (P : option mark -> Prop) (a b : store) : Prop := forall d, P (marks a d) -> P (marks b d).
Lemma keeps_step (P : option mark -> Prop) s st2 c x : P (Some Evaluated) -> keeps P (set_mark s c Evaluating) st2 ->
  keeps P s (set_mark (set_cont st2 c x) c Evaluated).
Proof.
  intros HP H d Hd. specialize (H d). cbn [marks set_mark set_cont] in *. unfold upd in *.
  destruct (cref_eqb_spec c d); auto.
Qed.
Notation ext := (keeps (fun m => m = Some Evaluated)).

(* [E]: the cells under evaluation, i.e. the stack of nested evaluate_cell calls *)
Record Inv (E : cref -> Prop) (s : store) : Prop := mkInv {
  inv_inputs : inputs_ok s;
  inv_evaluating : forall c, marks s c = Some Evaluating <-> E c;
  inv_evaluated : forall c, marks s c = Some Evaluated -> value_at s c = dn c;
}.

Lemma Inv_begin E s c : Inv E s -> marks s c = None -> Inv (fun d => E d \/ d = c) (set_mark s c Evaluating).
Proof.
  intros HI Em. constructor; [exact (inv_inputs _ _ HI) | |]; intro d; unfold value_at; cbn [set_mark marks cont]; unfold upd;
    destruct (cref_eqb_spec c d) as [<-|Hne]; try discriminate.
  - split; auto.
  - rewrite (inv_evaluating _ _ HI). split; [auto | intros [H|H]; congruence].
  - apply (inv_evaluated _ _ HI).
Qed.

Lemma Inv_end E s c f v0 fv : Inv (fun d => E d \/ d = c) s -> ~ E c -> cont0 c = CFormula f v0 -> of_fvalue fv = dn c ->
  Inv E (set_mark (set_cont s c (CFormula f fv)) c Evaluated).
Proof.
  intros HI HnE E0 Hv. constructor; [exact (inputs_ok_store _ _ _ _ _ (inv_inputs _ _ HI) E0) | |];
    intro d; unfold value_at; cbn [set_mark set_cont marks cont]; unfold upd; destruct (cref_eqb_spec c d) as [<-|Hne].
  - split; [discriminate | contradiction].
  - rewrite (inv_evaluating _ _ HI). split; [intros [H|H]; congruence | auto].
  - intros _. exact Hv.
  - apply (inv_evaluated _ _ HI).
Qed.

Theorem evaluate_cell_ok : forall k c s E,
  (rank c < k)%nat -> Inv E s -> (forall e, E e -> (rank c < rank e)%nat) ->
  fst (evaluate_cell N k c s) = dn c /\
  Inv E (snd (evaluate_cell N k c s)) /\
  ext s (snd (evaluate_cell N k c s)) /\
  (formula_of (cont0 c) <> None -> marks (snd (evaluate_cell N k c s)) c = Some Evaluated).
Proof.
  induction k as [|k IH]; intros c s E Hk HI HE; [lia|].
  destruct (plain_cell_cases s c (proj1 (inv_inputs _ _ HI))) as [[Hf Ec]|(f & v0 & v & E0 & Ec)].
  { rewrite (evaluate_cell_literal k c s Hf Ec), <- (dn_literal c Hf).
    split; [reflexivity | split; [exact HI | split; [intros d Hd; exact Hd | contradiction]]]. }
  cbn [evaluate_cell]. rewrite Ec. cbn [formula_of get_cell_value].
  destruct (marks s c) as [[|]|] eqn:Em; cbn [fst snd].
  - (* under evaluation: c would be below itself *)
    apply (inv_evaluating _ _ HI), HE in Em. lia.
  - split; [|split; [exact HI | split; [intros d Hd; exact Hd | intros _; exact Em]]].
    rewrite <- (inv_evaluated _ _ HI c Em). unfold value_at. rewrite Ec. reflexivity.
  - set (st1 := set_mark s c Evaluating). set (E' := fun d => E d \/ d = c).
    assert (HnE : ~ E c) by (intro H; specialize (HE c H); lia).
    (* the formula is run against the reference values; a cell it reads has lower rank *)
    assert (Hrd : forall d, (rank d < rank c)%nat ->
              mrelP (fun s1 (_ : unit) => Inv E' s1 /\ ext st1 s1) not_range (evaluate_cell N k d) (fun u => (dn d, u))).
    { intros d Hd s1 u [HIs Hext].
      destruct (IH d s1 E' ltac:(lia) HIs) as [A [B [C _]]].
      { intros e [He| ->]; [specialize (HE e He); lia | exact Hd]. }
      cbn [fst snd]. rewrite A. split; [reflexivity | split; [split; [exact B | intros x Hx; apply C, Hext, Hx] | apply not_range_dn]]. }
    destruct (eval_formula_rel N _ _ _ _ Hrd c f (fun d => Hrank c f v0 d E0) st1 tt
                (conj (Inv_begin E s c HI Em) (fun d H => H))) as [Hres [[HI2 Hext2] Hnr]].
    change (fst (eval_formula N (fun d u => (dn d, u)) c f tt)) with (result_of N dn c f) in Hres.
    destruct (eval_formula N (evaluate_cell N k) c f st1) as [r st2]. cbn [fst snd] in Hres, HI2, Hext2, Hnr. subst r.
    rewrite write_plain by exact Hnr. cbn [fst snd is_array_formula].
    assert (Hdn : of_fvalue (sink_plain N (result_of N dn c f)) = dn c) by (symmetry; apply (dn_formula c f v0 E0)).
    split; [rewrite <- Hdn; symmetry; apply (Hstorable c f v0 E0)|].
    split; [exact (Inv_end E st2 c f v0 _ HI2 HnE E0 Hdn)|].
    split; [exact (keeps_step _ s st2 c _ eq_refl Hext2) | intros _; apply upd_same].
Qed.

(* Model::evaluate over any order of cells *)
Lemma eval_cells_ok k order : forall s, (forall c, (rank c < k)%nat) -> Inv (fun _ => False) s ->
  Inv (fun _ => False) (eval_cells N k order s) /\ ext s (eval_cells N k order s) /\
  (forall c, In c order -> formula_of (cont0 c) <> None -> marks (eval_cells N k order s) c = Some Evaluated).
Proof.
  induction order as [|c order IH]; intros s Hk HI; cbn [eval_cells].
  - split; [exact HI | split; [intros d H; exact H | intros c []]].
  - destruct (evaluate_cell_ok k c s _ (Hk c) HI (fun e (H : False) => match H with end)) as [_ [HI1 [Hext1 Hm]]].
    destruct (IH _ Hk HI1) as [HI2 [Hext2 Hall]].
    split; [exact HI2 | split; [intros d Hd; apply Hext2, Hext1, Hd |]].
    intros d [->|Hd] Hf; [apply Hext2, Hm, Hf | apply Hall; assumption].
Qed.

Lemma inv_clear st0 : same_inputs cont0 (cont st0) -> oof st0 = false -> Inv (fun _ => False) (clear_marks st0).
Proof.
  intros Hs Ho. constructor; [exact (conj Hs Ho) | |]; intro c; cbn [clear_marks marks]; [split|]; easy.
Qed.

(* C05 on acyclic workbooks: every cell of the order ends up holding the reference value *)
Theorem evaluate_is_denote k order st0 :
  (forall c, (rank c < k)%nat) -> same_inputs cont0 (cont st0) -> oof st0 = false ->
  forall c, (In c order \/ formula_of (cont0 c) = None) ->
  value_at (evaluate_in N k order st0) c = dn c.
Proof.
  intros Hk Hs Ho c Hc. unfold evaluate_in.
  destruct (eval_cells_ok k order _ Hk (inv_clear st0 Hs Ho)) as [HI [_ Hall]].
  destruct (plain_cell_cases _ c (proj1 (inv_inputs _ _ HI))) as [[Hf Ec]|(f & v0 & v & E0 & Ec)].
  - unfold value_at. rewrite Ec. symmetry. apply dn_literal, Hf.
  - rewrite E0 in Hc. destruct Hc as [Hc|Hc]; [|discriminate].
    apply (inv_evaluated _ _ HI), Hall; [exact Hc | rewrite E0; discriminate].
Qed.

Theorem evaluate_preserves k order st0 :
  (forall c, (rank c < k)%nat) -> same_inputs cont0 (cont st0) -> oof st0 = false ->
  same_inputs cont0 (cont (evaluate_in N k order st0)) /\ oof (evaluate_in N k order st0) = false.
Proof.
  intros Hk Hs Ho. apply (eval_cells_ok k order _ Hk (inv_clear st0 Hs Ho)).
Qed.

(* consistency: each formula cell holds what its formula produces over the stored values *)
Theorem evaluate_consistent k order st0 :
  (forall c, (rank c < k)%nat) -> same_inputs cont0 (cont st0) -> oof st0 = false ->
  (forall c, formula_of (cont0 c) <> None -> In c order) ->
  forall c f v, cont0 c = CFormula f v ->
  value_at (evaluate_in N k order st0) c =
  of_fvalue (sink_plain N (result_of N (value_at (evaluate_in N k order st0)) c f)).
Proof.
  intros Hk Hs Ho Hcov c f v Ec.
  assert (Hall : forall d, value_at (evaluate_in N k order st0) d = dn d).
  { intro d. apply evaluate_is_denote; try assumption.
    destruct (formula_of (cont0 d)) eqn:Ef; [left; apply Hcov; congruence | right; reflexivity]. }
  rewrite Hall, (dn_formula c f v Ec). f_equal. f_equal. symmetry.
  apply result_of_rel; [intros; apply Hall|]. intro d. rewrite Hall. apply not_range_dn.
Qed.

End Plain.
