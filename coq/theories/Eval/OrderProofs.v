(* Eval/OrderProofs.v — C07 corollaries of the store theorem, and the concrete workbooks that
   refute the full-strength statements of C05 and C07 (computed with the toy number types). *)
From Coq Require Import Permutation.
From IronCalc Require Import Base.Prelude Eval.NumOps Eval.Value Eval.Coerce Eval.Ops Eval.Funs
  Eval.Eval Eval.Store Eval.Denote Eval.EvalProofs Eval.StoreProofs.

Section Order.
Context {num : Type} (N : NumOps num).
Notation content := (content (num:=num)). Notation store := (store (num:=num)).
Variable cont0 : cref -> content.
Hypothesis Hplain : forall c, plain_content (cont0 c).
Variable rank : cref -> nat.
Hypothesis Hrank : forall c f v d, cont0 c = CFormula f v -> In d (refs f) -> (rank d < rank c)%nat.
Hypothesis Hstorable : forall c f v, cont0 c = CFormula f v -> stable_result N (result_of N (dn N cont0 rank) c f).
Variable k : nat.
Hypothesis Hk : forall c, (rank c < k)%nat.

(* the values depend on the inputs only: not on stored values, marks, or the order *)
Theorem values_depend_on_inputs_only o1 o2 st1 st2 :
  same_inputs cont0 (cont st1) -> oof st1 = false -> same_inputs cont0 (cont st2) -> oof st2 = false ->
  forall c, In c o1 -> In c o2 -> value_at (evaluate_in N k o1 st1) c = value_at (evaluate_in N k o2 st2) c.
Proof.
  intros H1 F1 H2 F2 c I1 I2.
  rewrite !(evaluate_is_denote N cont0 Hplain rank Hrank Hstorable k) by auto. reflexivity.
Qed.

Theorem order_independent o1 o2 st0 : Permutation o1 o2 ->
  same_inputs cont0 (cont st0) -> oof st0 = false ->
  forall c, In c o1 -> value_at (evaluate_in N k o1 st0) c = value_at (evaluate_in N k o2 st0) c.
Proof.
  intros Hp Hs Ho c Hc. apply values_depend_on_inputs_only; try assumption.
  eapply Permutation_in; eassumption.
Qed.

Theorem idempotent o st0 : same_inputs cont0 (cont st0) -> oof st0 = false ->
  forall c, In c o ->
  value_at (evaluate_in N k o (evaluate_in N k o st0)) c = value_at (evaluate_in N k o st0) c.
Proof.
  intros Hs Ho c Hc.
  destruct (evaluate_preserves N cont0 Hplain rank Hrank Hstorable k o st0 Hk Hs Ho) as [Hs' Ho'].
  apply values_depend_on_inputs_only; assumption.
Qed.
End Order.

(* ---------------- concrete workbooks ---------------- *)
Definition cA1 : cref := mkref 0 1 1.
Definition cB1 : cref := mkref 0 1 2.
Definition cC1 : cref := mkref 0 1 3.

(* F10: A1 = IFERROR(B1,5), B1 = A1+1 *)
Definition wb_f10 : workbook (num:=Z) :=
  [(cA1, CFormula (EFun FIferror [ERef 0 1 2; ENum 5]) FUnevaluated);
   (cB1, CFormula (EBin OAdd (ERef 0 1 1) (ENum 1)) FUnevaluated)].
Lemma f10_values :
  value_at (evaluate ZOps [cA1; cB1] wb_f10) cA1 = VNum 5 /\
  value_at (evaluate ZOps [cA1; cB1] wb_f10) cB1 = VErr ECIRC /\
  (* what B1's formula produces over the stored values *)
  result_of ZOps (value_at (evaluate ZOps [cA1; cB1] wb_f10)) cB1 (EBin OAdd (ERef 0 1 1) (ENum 1)) = VNum 6 /\
  values_consistent_b ZOps Z.eqb (cont (evaluate ZOps [cA1; cB1] wb_f10)) [cA1; cB1] = false.
Proof. vm_compute. repeat split; reflexivity. Qed.
(* visiting B1 first gives B1 = 6: the result depends on the order of evaluation *)
Lemma f10_other_order :
  value_at (evaluate ZOps [cB1; cA1] wb_f10) cA1 = VNum 5 /\
  value_at (evaluate ZOps [cB1; cA1] wb_f10) cB1 = VNum 6.
Proof. vm_compute. split; reflexivity. Qed.

(* F30: A1 = B1&"x", B1 = C1 with C1 empty — an ACYCLIC workbook *)
Definition wb_f30 : workbook (num:=Z) :=
  [(cA1, CFormula (EConcat (ERef 0 1 2) (EStr [120])) FUnevaluated);
   (cB1, CFormula (ERef 0 1 3) FUnevaluated)].
Lemma f30_values :
  value_at (evaluate ZOps [cA1; cB1] wb_f30) cA1 = VStr [120] /\
  value_at (evaluate ZOps [cA1; cB1] wb_f30) cB1 = VNum 0 /\
  result_of ZOps (value_at (evaluate ZOps [cA1; cB1] wb_f30)) cA1 (EConcat (ERef 0 1 2) (EStr [120])) = VStr [48; 120] /\
  values_consistent_b ZOps Z.eqb (cont (evaluate ZOps [cA1; cB1] wb_f30)) [cA1; cB1] = false.
Proof. vm_compute. repeat split; reflexivity. Qed.
Lemma f30_other_order :
  value_at (evaluate ZOps [cB1; cA1] wb_f30) cA1 = VStr [48; 120].
Proof. vm_compute. reflexivity. Qed.

(* F31: A1 = ISNUMBER(B1), B1 = MAX*10 (overflows; stored as #NUM!) *)
Definition wb_f31 : workbook (num:=option Z) :=
  [(cA1, CFormula (EFun FIsnumber [ERef 0 1 2]) FUnevaluated);
   (cB1, CFormula (EBin OMul (ENum (Some zmax)) (ENum (Some 10))) FUnevaluated)].
Lemma f31_values :
  value_at (evaluate BOps [cA1; cB1] wb_f31) cA1 = VBool true /\
  value_at (evaluate BOps [cA1; cB1] wb_f31) cB1 = VErr ENUM /\
  value_at (evaluate BOps [cB1; cA1] wb_f31) cA1 = VBool false.
Proof. vm_compute. repeat split; reflexivity. Qed.

(* a workbook that satisfies every hypothesis of the theorems (non-vacuity):
   A1 = 1, B1 = A1+1, C1 = SUM(A1:B1)*2 *)
Definition wb_ok : workbook (num:=Z) :=
  [(cA1, CNumber 1);
   (cB1, CFormula (EBin OAdd (ERef 0 1 1) (ENum 1)) FUnevaluated);
   (cC1, CFormula (EBin OMul (EFun FSum [ERange 0 1 1 1 2]) (ENum 2)) FUnevaluated)].
Definition rank_ok (c : cref) : nat := if cref_eqb c cC1 then 2%nat else if cref_eqb c cB1 then 1%nat else 0%nat.

Lemma wb_ok_plain : forall c, plain_content (lookup wb_ok c).
Proof.
  intro c. destruct (lookup_cases wb_ok c) as [->|H]; [exact I|].
  repeat (destruct H as [H|H]; [inversion H; exact I|]). contradiction.
Qed.

Lemma wb_ok_cases c f v : lookup wb_ok c = CFormula f v ->
  (c = cB1 /\ f = EBin OAdd (ERef 0 1 1) (ENum 1)) \/ (c = cC1 /\ f = EBin OMul (EFun FSum [ERange 0 1 1 1 2]) (ENum 2)).
Proof.
  intro Hc. destruct (lookup_cases wb_ok c) as [H|H]; rewrite Hc in H; [discriminate|].
  repeat (destruct H as [H|H]; [inversion H; auto|]). contradiction.
Qed.

Lemma wb_ok_acyclic : forall c f v d, lookup wb_ok c = CFormula f v -> In d (refs f) -> (rank_ok d < rank_ok c)%nat.
Proof.
  intros c f v d Hc Hd. destruct (wb_ok_cases c f v Hc) as [[-> ->]|[-> ->]]; vm_compute in Hd.
  - destruct Hd as [<-|[]]. vm_compute. lia.
  - destruct Hd as [<-|[<-|[]]]; vm_compute; lia.
Qed.

Lemma wb_ok_storable : forall c f v, lookup wb_ok c = CFormula f v ->
  stable_result ZOps (result_of ZOps (dn ZOps (lookup wb_ok) rank_ok) c f).
Proof.
  intros c f v Hc. destruct (wb_ok_cases c f v Hc) as [[-> ->]|[-> ->]]; vm_compute; reflexivity.
Qed.

Lemma wb_ok_rank_bound : forall c, (rank_ok c < fuel_for wb_ok)%nat.
Proof. intro c. unfold rank_ok. destruct (cref_eqb c cC1), (cref_eqb c cB1); vm_compute; lia. Qed.

Lemma wb_ok_values :
  value_at (evaluate ZOps [cC1; cB1; cA1] wb_ok) cC1 = VNum 6 /\ denote ZOps wb_ok cC1 = VNum 6.
Proof. vm_compute. split; reflexivity. Qed.
