(* Eval/OpsProofs.v — the semantic laws of the core language (C06) as facts about the model,
   for every NumOps instance.  The laws of the number comparison that the pre-order theorem
   needs are hypotheses of its Section. *)
From IronCalc Require Import Base.Prelude Eval.NumOps Eval.Value Eval.Coerce Eval.Ops Eval.Funs Eval.Eval.

Lemma text_cmp_refl a : text_cmp a a = Eq.
Proof. induction a as [|x a IH]; cbn [text_cmp]; [reflexivity|]. rewrite Z.compare_refl. exact IH. Qed.
Lemma text_cmp_antisym a : forall b, text_cmp b a = CompOpp (text_cmp a b).
Proof.
  induction a as [|x a IH]; intros [|y b]; cbn [text_cmp]; try reflexivity.
  rewrite (Z.compare_antisym x y). destruct (x ?= y); cbn [CompOpp]; [apply IH | reflexivity | reflexivity].
Qed.
Lemma text_cmp_trans a : forall b c, text_cmp a b <> Gt -> text_cmp b c <> Gt -> text_cmp a c <> Gt.
Proof.
  induction a as [|x a IH]; intros [|y b] [|z c]; cbn [text_cmp]; try congruence.
  destruct (Z.compare_spec x y), (Z.compare_spec y z), (Z.compare_spec x z); try congruence; try lia. apply IH.
Qed.
Lemma bool_cmp_refl a : bool_cmp a a = Eq. Proof. destruct a; reflexivity. Qed.

Section Laws.
Context {num : Type} (N : NumOps num).
Notation value := (value num). Notation ast := (ast num).

(* --- coercions: Empty is 0 / "" / FALSE by context, TRUE is 1, text goes through of_text --- *)
Lemma empty_by_context :
  cast_to_number N VEmptyCell = ROk (nzero N) /\ cast_to_string N VEmptyCell = ROk [] /\ cast_to_bool N VEmptyCell = ROk false.
Proof. repeat split. Qed.
Lemma bool_as_number : cast_to_number N (VBool true) = ROk (none_ N) /\ cast_to_number N (VBool false) = ROk (nzero N).
Proof. split; reflexivity. Qed.
Lemma text_as_number s : cast_to_number N (VStr s) = match nof_text N s with Some f => ROk f | None => RErr EVALUE end.
Proof. reflexivity. Qed.
Lemma error_through_casts e : cast_to_number N (VErr e) = RErr e /\ cast_to_string N (VErr e) = RErr e /\ cast_to_bool N (VErr e) = RErr e.
Proof. repeat split. Qed.

(* --- text as a logical: the comparison is made after lowercasing, so every case variant counts --- *)
Theorem text_as_bool_case_insensitive s :
  (str_lower N s = t_true -> cast_to_bool N (VStr s) = ROk true) /\
  (str_lower N s = t_false -> cast_to_bool N (VStr s) = ROk false) /\
  (str_lower N s <> t_true -> str_lower N s <> t_false -> cast_to_bool N (VStr s) = RErr EVALUE).
Proof.
  unfold cast_to_bool, bool_of_text. repeat split; try (intros ->; reflexivity).
  intros H1 H2. destruct (text_eqb (str_lower N s) t_true) eqn:E1; [apply text_eqb_eq in E1; contradiction|].
  destruct (text_eqb (str_lower N s) t_false) eqn:E2; [apply text_eqb_eq in E2; contradiction | reflexivity].
Qed.
(* the same cast is used for an element of an array *)
Theorem text_element_as_bool_case_insensitive s :
  (str_lower N s = t_true -> array_node_to_bool N (SStr s) = ROk true) /\
  (str_lower N s = t_false -> array_node_to_bool N (SStr s) = ROk false).
Proof. unfold array_node_to_bool, bool_of_text. split; intros ->; reflexivity. Qed.

Variable env : cref -> value.
Variable anchor : cref.
Notation ev := (eval N env anchor).

(* evaluates the subterm [l] of the expression in the goal: its value replaces it, and is rewritten
   by the hypothesis that names it; the state of the pure semantics is [tt] *)
Ltac run l := unfold eval in *; cbn [eval_st is_aggregate]; unfold bind;
  destruct (eval_st N (fun c s => (env c, s)) anchor l tt) as [? []]; cbn [fst] in *; subst.

(* --- error propagation: the left operand's error wins in every binary operator --- *)
Theorem left_error_wins l r e : ev l = VErr e ->
  (forall o, ev (EBin o l r) = VErr e) /\ ev (EConcat l r) = VErr e /\ (forall k, ev (ECmp k l r) = VErr e).
Proof. intro H. repeat split; intros; run l; reflexivity. Qed.
Theorem right_error_after_left_number o l r x e : ev l = VNum x -> ev r = VErr e -> ev (EBin o l r) = VErr e.
Proof. intros H1 H2. run l. cbn. run r. reflexivity. Qed.
Theorem unary_error k x e : ev x = VErr e -> ev (EUnary k x) = VErr e.
Proof. intro H. run x. reflexivity. Qed.

(* --- arithmetic on scalars --- *)
Theorem arith_numbers o l r x y : ev l = VNum x -> ev r = VNum y -> ev (EBin o l r) = res_value (apply_op N o x y).
Proof. intros H1 H2. run l. cbn. run r. reflexivity. Qed.
Theorem division_by_zero l r x y : ev l = VNum x -> ev r = VNum y -> nis_zero N y = true -> ev (EBin ODiv l r) = VErr EDIV.
Proof. intros H1 H2 Hz. rewrite (arith_numbers ODiv l r x y H1 H2). cbn. rewrite Hz. reflexivity. Qed.
Theorem text_operand o l r s : ev l = VStr s ->
  (nof_text N s = None -> ev (EBin o l r) = VErr EVALUE) /\
  (forall x y, nof_text N s = Some x -> ev r = VNum y -> ev (EBin o l r) = res_value (apply_op N o x y)).
Proof. intro H. run l. cbn. split; [intros -> | intros x y -> H2; run r]; reflexivity. Qed.
Theorem bool_and_empty_operands o l r b : ev l = VBool b -> ev r = VEmptyCell ->
  ev (EBin o l r) = res_value (apply_op N o (num_of_bool N b) (nzero N)).
Proof. intros H1 H2. run l. cbn. run r. reflexivity. Qed.

(* --- every operator returns a value of a fixed class (or an error, or an array of them) --- *)
Definition is_num_err_arr (v : value) : Prop := match v with VNum _ | VErr _ | VArray _ => True | _ => False end.
Definition is_str_err_arr (v : value) : Prop := match v with VStr _ | VErr _ | VArray _ => True | _ => False end.
Definition is_bool_err_arr (v : value) : Prop := match v with VBool _ | VErr _ | VArray _ => True | _ => False end.
Lemma arith_class o l r : is_num_err_arr (arith N o l r).
Proof. destruct l, r; cbn; try exact I. destruct (apply_op N o f f0); exact I. Qed.
Lemma concat_class l r : is_str_err_arr (concat N l r). Proof. destruct l, r; exact I. Qed.
Lemma compare_class k l r : is_bool_err_arr (comparison_op N k l r). Proof. destruct l, r; exact I. Qed.

Theorem result_classes l r :
  (forall o, is_num_err_arr (ev (EBin o l r))) /\ is_str_err_arr (ev (EConcat l r)) /\ (forall k, is_bool_err_arr (ev (ECmp k l r))).
Proof.
  repeat split; intros; run l.
  - destruct (number_or_array N _ _ tt) as [[xl|er] []]; [|exact I].
    run r. destruct (number_or_array N _ _ tt) as [[xr|er] []]; [apply arith_class | exact I].
  - destruct (string_or_array N _ _ tt) as [[xl|er] []]; [|exact I].
    run r. destruct (string_or_array N _ _ tt) as [[xr|er] []]; [apply concat_class | exact I].
  - destruct (value_or_array _ _ tt) as [[xl|er] []]; [|exact I].
    run r. destruct (value_or_array _ _ tt) as [[xr|er] []]; [apply compare_class | exact I].
Qed.

(* --- IF and IFERROR are lazy: the branch that is not taken is not evaluated at all --- *)
Theorem if_lazy c t e :
  (ev c = VBool true -> ev (EFun FIf [c; t; e]) = ev t) /\ (ev c = VBool false -> ev (EFun FIf [c; t; e]) = ev e).
Proof. split; intro H; run c; reflexivity. Qed.
Theorem if_false_no_else c t : ev c = VBool false -> ev (EFun FIf [c; t]) = VBool false.
Proof. intro H. run c. reflexivity. Qed.
Theorem if_condition_error c t e x : ev c = VErr x -> ev (EFun FIf [c; t; e]) = VErr x.
Proof. intro H. run c. reflexivity. Qed.
Theorem iferror_passes_value x fb v : ev x = v -> (match v with VErr _ | VRange _ _ _ _ _ | VArray _ => False | _ => True end) ->
  ev (EFun FIferror [x; fb]) = v.
Proof. intros H Hv. run x. destruct v; try contradiction; reflexivity. Qed.
Theorem iferror_replaces_error x fb e : ev x = VErr e -> ev (EFun FIferror [x; fb]) = ev fb.
Proof. intro H. run x. reflexivity. Qed.
(* the same on the store evaluator: the untaken branch causes no cell to be read *)
Theorem if_true_lazy_stateful {S} (rd : cref -> M (S:=S) value) c t e s s1 :
  eval_st N rd anchor c s = (VBool true, s1) ->
  eval_st N rd anchor (EFun FIf [c; t; e]) s = eval_st N rd anchor t s1.
Proof. intro H. cbn [eval_st is_aggregate]. unfold bind. rewrite H. reflexivity. Qed.
Theorem iferror_lazy_stateful {S} (rd : cref -> M (S:=S) value) x fb s s1 n :
  eval_st N rd anchor x s = (VNum n, s1) ->
  eval_st N rd anchor (EFun FIferror [x; fb]) s = (VNum n, s1).
Proof. intro H. cbn [eval_st is_aggregate]. unfold bind. rewrite H. reflexivity. Qed.

(* --- aggregates: range elements are filtered, direct arguments are coerced --- *)
Theorem aggregates_ranges_vs_direct a s b v2 :
  agg_cell N FSum a (VStr s) = Continue a /\ agg_cell N FSum a (VBool b) = Continue a /\
  agg_direct N FSum false a (VBool b) v2 = Continue (set_num a (nadd N (a_num a) (num_of_bool N b))) /\
  (nof_text N s = None -> agg_direct N FSum false a (VStr s) v2 = Stop (VErr EVALUE)) /\
  agg_cell N FCount a (VBool b) = Continue a /\ agg_direct N FCount false a (VBool b) v2 = Continue (inc_cnt a) /\
  agg_cell N FAverage a (VBool b) = Continue a /\ agg_direct N FAverage false a (VBool b) v2 = Continue (avg_add N a (num_of_bool N b)).
Proof. repeat split. intro H. cbn. rewrite H. reflexivity. Qed.
Theorem sum_skips_empty_in_range a : agg_cell N FSum a VEmptyCell = Continue a. Proof. reflexivity. Qed.
Theorem sum_error_in_range a e : agg_cell N FSum a (VErr e) = Stop (VErr e). Proof. reflexivity. Qed.
Theorem sum_coerces_direct_text a s x v2 : nof_text N s = Some x ->
  agg_direct N FSum false a (VStr s) v2 = Continue (set_num a (nadd N (a_num a) x)).
Proof. intro H. cbn. rewrite H. reflexivity. Qed.
Theorem counta_counts_everything_but_empty a v : v <> VEmptyCell -> v <> VEmptyArg -> agg_cell N FCounta a v = Continue (inc_cnt a).
Proof. destruct v; cbn; congruence. Qed.
Theorem and_ignores_text_in_range a s : agg_cell N FAnd a (VStr s) = short_check FAnd a. Proof. reflexivity. Qed.
(* a reference argument is treated like a one-cell range *)
Theorem count_reference_argument_like_range a b v2 : agg_direct N FCount true a (VBool b) v2 = Continue a. Proof. reflexivity. Qed.

(* where the code departs from the spreadsheet rule "direct arguments are coerced":
   MIN and MAX ignore booleans and texts given directly (Excel: MIN(TRUE) = 1, MIN("5") = 5,
   MIN("abc") = #VALUE!) *)
Theorem minmax_ignore_direct_text_and_bool a s b v2 :
  agg_direct N FMin false a (VStr s) v2 = Continue a /\ agg_direct N FMin false a (VBool b) v2 = Continue a /\
  agg_direct N FMax false a (VStr s) v2 = Continue a /\ agg_direct N FMax false a (VBool b) v2 = Continue a.
Proof. repeat split. Qed.

End Laws.

(* --- comparison is a total pre-order with the class order Number < Text < Boolean --- *)
Section Order.
Context {num : Type} (N : NumOps num).
Notation value := (value num).
Hypothesis ncmp_refl : forall a, ncmp N a a = Eq.
Hypothesis ncmp_antisym : forall a b, ncmp N b a = CompOpp (ncmp N a b).
Hypothesis ncmp_trans : forall a b c, ncmp N a b <> Gt -> ncmp N b c <> Gt -> ncmp N a c <> Gt.

Definition plain_value (v : value) : Prop := match v with VNum _ | VStr _ | VBool _ => True | _ => False end.
Definition vle (a b : value) : Prop := compare_values N a b <> Gt.

Theorem class_order x s b :
  compare_values N (VNum x) (VStr s) = Lt /\ compare_values N (VStr s) (VBool b) = Lt /\
  compare_values N (VNum x) (VBool b) = Lt /\ compare_values N (VStr s) (VNum x) = Gt /\
  compare_values N (VBool b) (VStr s) = Gt /\ compare_values N (VBool b) (VNum x) = Gt.
Proof. repeat split. Qed.

Theorem compare_antisym a b : plain_value a -> plain_value b -> compare_values N b a = CompOpp (compare_values N a b).
Proof.
  destruct a; try contradiction; destruct b; try contradiction; intros _ _; try reflexivity.
  - apply ncmp_antisym. - apply text_cmp_antisym. - destruct b0, b; reflexivity.
Qed.
Theorem compare_refl a : plain_value a -> compare_values N a a = Eq.
Proof. destruct a; cbn; try contradiction; intros _; [apply ncmp_refl | apply text_cmp_refl | apply bool_cmp_refl]. Qed.
Theorem compare_total a b : plain_value a -> plain_value b -> vle a b \/ vle b a.
Proof.
  intros Ha Hb. unfold vle. rewrite (compare_antisym a b Ha Hb). destruct (compare_values N a b); cbn; [left|left|right]; congruence.
Qed.
Theorem compare_trans a b c : plain_value a -> plain_value b -> plain_value c -> vle a b -> vle b c -> vle a c.
Proof.
  unfold vle. destruct a; try contradiction; destruct b; try contradiction; destruct c; try contradiction;
    intros _ _ _; cbn; try congruence.
  - apply ncmp_trans. - apply text_cmp_trans.
  - destruct b0, b1, b; cbn; congruence.
Qed.
Theorem text_comparison_ignores_case a b : str_upper N a = str_upper N b -> compare_values N (VStr a) (VStr b) = Eq.
Proof. intro H. cbn. rewrite H. apply text_cmp_refl. Qed.
(* an empty cell is compared as 0, "" or FALSE according to the other operand *)
Theorem empty_compares_as_other_side x s b :
  compare_values N VEmptyCell (VNum x) = compare_values N (VNum (nzero N)) (VNum x) /\
  compare_values N VEmptyCell (VStr s) = compare_values N (VStr []) (VStr s) /\
  compare_values N VEmptyCell (VBool b) = compare_values N (VBool false) (VBool b).
Proof. repeat split. Qed.
End Order.

(* every case variant of "true" / "false" (2^4 and 2^5 spellings), with ASCII case mapping *)
Fixpoint case_variants (t : text) : list text :=
  match t with
  | [] => [[]]
  | c :: r => flat_map (fun v => [to_ascii_lower c :: v; to_ascii_upper c :: v]) (case_variants r)
  end.
Lemma all_case_variants_of_true_false :
  forallb (fun v => match cast_to_bool ZOps (VStr v) with ROk true => true | _ => false end) (case_variants t_true) = true /\
  forallb (fun v => match cast_to_bool ZOps (VStr v) with ROk false => true | _ => false end) (case_variants t_false) = true /\
  length (case_variants t_true) = 16%nat /\ length (case_variants t_false) = 32%nat /\
  cast_to_bool ZOps (VStr [32; 84; 82; 85; 69]) = RErr EVALUE.
Proof. vm_compute. repeat split; reflexivity. Qed.
