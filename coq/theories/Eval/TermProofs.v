(* Eval/TermProofs.v — termination of the store evaluator on workbooks of plain cells, for
   EVERY dependency shape (cycles included): with fuel above the number of cells the model
   never takes its out-of-fuel exit.  Measure: the cells of the workbook not yet marked; every
   nested evaluate_cell that consumes fuel marks a new one, and marks are never removed. *)
From IronCalc Require Import Base.Prelude Eval.NumOps Eval.Value Eval.Coerce Eval.Ops Eval.Funs
  Eval.Eval Eval.Store Eval.Denote Eval.EvalProofs Eval.StoreProofs.

Section Term.
Context {num : Type} (N : NumOps num).
Notation content := (content (num:=num)). Notation store := (store (num:=num)).
Variable wb : workbook (num:=num).
Hypothesis Hplain : forall c, plain_content (lookup wb c).
Let cont0 := lookup wb.
Let dom : list cref := map fst wb.

Lemma lookup_in c : lookup wb c <> CEmpty -> In c dom.
Proof.
  intro H. destruct (lookup_cases wb c) as [E|Hin]; [contradiction|]. exact (in_map fst _ _ Hin).
Qed.
Lemma filter_len {A} (f : A -> bool) (l : list A) : (length (filter f l) <= length l)%nat.
Proof. induction l as [|x l IH]; cbn [filter length]; [lia | destruct (f x); cbn [length]; lia]. Qed.
(* a stronger filter keeps fewer elements, strictly fewer if it drops one that the weaker one keeps *)
Lemma filter_length_mono {A} (f g : A -> bool) l : (forall x, g x = true -> f x = true) ->
  (length (filter g l) <= length (filter f l))%nat /\
  forall x0, In x0 l -> f x0 = true -> g x0 = false -> (length (filter g l) < length (filter f l))%nat.
Proof.
  intro H. induction l as [|x l [IH1 IH2]]; cbn [filter In]; [split; [lia | contradiction]|]. split.
  - destruct (g x) eqn:Eg; [rewrite (H x Eg) | destruct (f x)]; cbn [length]; lia.
  - intros x0 [->|Hin] Hf Hg; [rewrite Hf, Hg; cbn [length]; lia|]. specialize (IH2 x0 Hin Hf Hg).
    destruct (g x) eqn:Eg; [rewrite (H x Eg) | destruct (f x)]; cbn [length]; lia.
Qed.

Definition unmarkedb (s : store) (c : cref) : bool := match marks s c with None => true | Some _ => false end.
Definition unmarked (s : store) : nat := length (filter (unmarkedb s) dom).
Notation mono := (keeps (fun m => m <> None)).

Lemma unmarked_mono a b : mono a b -> (unmarked b <= unmarked a)%nat.
Proof.
  intro H. apply filter_length_mono. intros x. unfold unmarkedb. specialize (H x).
  destruct (marks b x); [discriminate|]. destruct (marks a x); [exfalso; apply H; congruence | reflexivity].
Qed.
Lemma unmarked_set_mark s c m : In c dom -> marks s c = None -> (unmarked (set_mark s c m) < unmarked s)%nat.
Proof.
  intros Hin Hm. refine (proj2 (filter_length_mono _ _ dom _) c Hin _ _); unfold unmarkedb; cbn [set_mark marks].
  - intros x. unfold upd. destruct (cref_eqb c x); [discriminate | auto].
  - rewrite Hm. reflexivity.
  - rewrite upd_same. reflexivity.
Qed.

Notation J := (inputs_ok cont0).

Theorem evaluate_cell_terminates : forall k c s, J s -> (unmarked s < k)%nat ->
  J (snd (evaluate_cell N k c s)) /\ mono s (snd (evaluate_cell N k c s)) /\ not_range (fst (evaluate_cell N k c s)).
Proof.
  induction k as [|k IH]; intros c s HJ Hk; [lia|].
  destruct (plain_cell_cases cont0 Hplain s c (proj1 HJ)) as [[Hf Ec]|(f & v0 & v & E0 & Ec)].
  { rewrite (evaluate_cell_literal N cont0 Hplain k c s Hf Ec).
    split; [exact HJ | split; [intros d Hd; exact Hd | apply not_range_get_cell_value]]. }
  cbn [evaluate_cell]. rewrite Ec. cbn [formula_of get_cell_value].
  destruct (marks s c) as [[|]|] eqn:Em; cbn [fst snd].
  1,2: split; [exact HJ | split; [intros d Hd; exact Hd | try exact I; apply not_range_of_fvalue]].
  set (st1 := set_mark s c Evaluating).
  assert (Hlt : (unmarked st1 < k)%nat).
  { assert (In c dom) by (apply lookup_in; fold cont0; rewrite E0; discriminate).
    pose proof (unmarked_set_mark s c Evaluating H Em). unfold st1. lia. }
  (* the formula is run against itself: the relation is equality of stores plus the invariant;
     every nested evaluate_cell finds fewer unmarked cells than fuel *)
  assert (Hrd : forall d, True ->
            mrelP (fun s1 s2 : store => s1 = s2 /\ J s1 /\ mono st1 s1) not_range (evaluate_cell N k d) (evaluate_cell N k d)).
  { intros d _ s1 s2 [<- [HJ1 Hm]].
    destruct (IH d s1 HJ1) as [A [B C]]; [pose proof (unmarked_mono st1 s1 Hm); lia|].
    split; [reflexivity | split; [split; [reflexivity | split; [exact A | intros x Hx; apply B, Hm, Hx]] | exact C]]. }
  destruct (eval_formula_rel N _ _ _ _ Hrd c f (fun _ _ => I) st1 st1
              (conj eq_refl (conj HJ (fun d Hd => Hd)))) as [_ [[_ [HJ2 Hm2]] Hnr]].
  destruct (eval_formula N (evaluate_cell N k) c f st1) as [r st2]. cbn [fst snd] in *.
  rewrite write_plain by exact Hnr. cbn [fst snd is_array_formula].
  split; [exact (inputs_ok_store cont0 _ c f v0 _ HJ2 E0) | split].
  - apply keeps_step; [discriminate | exact Hm2].
  - apply not_range_returned, Hnr.
Qed.

Lemma eval_cells_terminates k order : forall s, J s -> (unmarked s < k)%nat -> oof (eval_cells N k order s) = false.
Proof.
  induction order as [|c order IH]; intros s HJ Hk; cbn [eval_cells]; [exact (proj2 HJ)|].
  destruct (evaluate_cell_terminates k c s HJ Hk) as [HJ' [Hm _]].
  apply IH; [exact HJ' | pose proof (unmarked_mono _ _ Hm); lia].
Qed.

(* fuel suffices: Model::evaluate on a workbook of plain cells, any order, any dependency shape *)
Theorem fuel_suffices order : oof (evaluate N order wb) = false.
Proof.
  unfold evaluate, evaluate_in. apply eval_cells_terminates.
  - split; [intro c; reflexivity | reflexivity].
  - unfold unmarked, fuel_for. pose proof (filter_len (unmarkedb (clear_marks (store_of wb))) dom) as H.
    assert (Hl : length dom = length wb) by (unfold dom; apply map_length). lia.
Qed.

End Term.
