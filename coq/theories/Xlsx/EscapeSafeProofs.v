(* Xlsx/EscapeSafeProofs.v — `decode_xlsx_escapes` never indexes out of range and never slices off a
   character boundary, for every well-formed byte string; the off-by-one guard does. *)
From IronCalc Require Import Base.Prelude Xlsx.EscapeSafe.
Local Open Scope nat_scope.

Lemma nth_skipn_add {A} (l : list A) i k d : nth (i + k) l d = nth k (skipn i l) d.
Proof.
  revert l; induction i as [|i IH]; intros l; [reflexivity|].
  destruct l as [|a l]; cbn [plus skipn nth]; [destruct k; reflexivity|apply IH].
Qed.

Lemma skipn_add {A} (l : list A) i k : skipn (i + k) l = skipn k (skipn i l).
Proof.
  revert l; induction i as [|i IH]; intros l; [reflexivity|].
  destruct l as [|a l]; cbn [plus skipn]; [destruct k; reflexivity|apply IH].
Qed.

Lemma skipn_nth {A} (l : list A) i d : i < length l -> skipn i l = nth i l d :: skipn (S i) l.
Proof.
  revert l; induction i as [|i IH]; intros [|a l] H; cbn [length] in H; try lia; [reflexivity|].
  apply IH. lia.
Qed.

Lemma forallb_firstn_nth (P : Z -> bool) k l j :
  forallb P (firstn k l) = true -> j < k -> j < length l -> P (nth j l 0%Z) = true.
Proof.
  revert l j; induction k as [|k IH]; intros [|c l] [|j]; cbn [firstn forallb length nth];
    intros H Hk Hl; try lia; apply andb_true_iff in H as [Hc H]; [exact Hc|apply IH; [exact H|lia..]].
Qed.

(* every element of the slice l[a..b] *)
Lemma forallb_slice (P : Z -> bool) (l : list Z) a b j :
  forallb P (firstn (b - a) (skipn a l)) = true -> a <= j < b -> j < length l -> P (nth j l 0%Z) = true.
Proof.
  intros H Hj Hl. replace j with (a + (j - a)) by lia. rewrite nth_skipn_add.
  apply (forallb_firstn_nth _ _ _ _ H); [|rewrite skipn_length]; lia.
Qed.

Lemma width_pos b : 1 <= width b.
Proof. unfold width. repeat destruct (_ <? _)%Z; lia. Qed.

Lemma hex_lt_128 c : is_hexdigit c = true -> (c < 128)%Z.
Proof. unfold is_hexdigit. lia. Qed.

(* one character off the front *)
Lemma shape_step b r : utf8_shape (b :: r) ->
  is_cont b = false /\ width b - 1 <= length r /\ utf8_shape (skipn (width b - 1) r).
Proof.
  intros H. inversion H as [|b' cs rest Hb Hl Hc Hr]; subst.
  split; [exact Hb|]. rewrite app_length. split; [lia|].
  rewrite <- Hl. rewrite skipn_app, skipn_all, Nat.sub_diag. cbn. exact Hr.
Qed.

Section Safe.
  Variable bytes : list Z.
  Variable scalar_ok : list Z -> bool.
  Hypothesis shape : utf8_shape bytes.

  Notation len := (blen bytes).

  (* every character start is a suffix in shape *)
  Definition at_char (i : nat) : Prop := i <= len /\ utf8_shape (skipn i bytes).

  (* the byte at a character start is no continuation byte, and its width leads to the next start *)
  Lemma at_char_next i : at_char i -> i < len ->
    is_cont (nth i bytes 0%Z) = false /\ at_char (i + width (nth i bytes 0%Z)).
  Proof.
    intros [_ Sh] Hlt. unfold at_char, blen in *. rewrite (skipn_nth _ _ 0%Z Hlt) in Sh.
    apply shape_step in Sh as (Hb & Hw & Sh). rewrite skipn_length in Hw.
    pose proof (width_pos (nth i bytes 0%Z)) as Wp. split; [exact Hb|]. split; [lia|].
    replace (i + _) with (S i + (width (nth i bytes 0%Z) - 1)) by lia. rewrite skipn_add. exact Sh.
  Qed.

  (* over ASCII bytes the character starts advance one by one *)
  Lemma at_char_run i k : at_char i -> i <= k <= len ->
    (forall j, i <= j < k -> (nth j bytes 0 < 128)%Z) -> at_char k.
  Proof.
    intros A. induction k as [|k IH]; intros Hk H; [replace 0 with i by lia; exact A|].
    destruct (Nat.eq_dec i (S k)) as [<-|Hne]; [exact A|].
    destruct (at_char_next k) as [_ N]; [apply IH; [lia|intros; apply H; lia]|lia|].
    specialize (H k). unfold width in N. destruct (_ <? 128)%Z eqn:E in N; [|lia].
    rewrite Nat.add_1_r in N. exact N.
  Qed.

  Lemma boundary_start j : j < len -> is_cont (nth j bytes 0%Z) = false -> boundary bytes j = true.
  Proof.
    intros H C. apply Nat.ltb_lt in H. unfold boundary. rewrite H, C. apply orb_true_r.
  Qed.

  Lemma boundary_len : boundary bytes len = true.
  Proof. unfold boundary. rewrite Nat.eqb_refl, orb_true_r. reflexivity. Qed.

  Lemma at_char_boundary i : at_char i -> boundary bytes i = true.
  Proof.
    intros A. destruct (Nat.eq_dec i len) as [->|Hne]; [apply boundary_len|].
    assert (Hlt : i < len) by (destruct A; lia). apply boundary_start, at_char_next; assumption.
  Qed.

  Lemma byte_at_ok j : j < len -> byte_at bytes j = Ok (nth j bytes 0%Z).
  Proof. intros H. unfold byte_at. apply Nat.ltb_lt in H. rewrite H. reflexivity. Qed.

  Lemma str_slice_ok a b :
    a <= b -> b <= len -> boundary bytes a = true -> boundary bytes b = true ->
    str_slice bytes a b = Ok (firstn (b - a) (skipn a bytes)).
  Proof.
    intros H1 H2 Ba Bb. unfold str_slice.
    apply Nat.leb_le in H1. apply Nat.leb_le in H2. rewrite H1, H2, Ba, Bb. reflexivity.
  Qed.

  (* the escape test with the guard of the code: no panic; when it fires, i + 7 is a character start *)
  Lemma try_escape_safe i :
    at_char i ->
    match try_escape bytes scalar_ok true i with
    | Ok e => e = true -> at_char (i + 7)
    | _ => False
    end.
  Proof.
    intros A. unfold try_escape.
    destruct (i + 6 <? len) eqn:G; [|discriminate]. apply Nat.ltb_lt in G.
    rewrite byte_at_ok by lia. cbn [obind].
    destruct (nth i bytes 0 =? 95)%Z eqn:E0; cbn [negb]; [|discriminate].
    rewrite byte_at_ok by lia. cbn [obind].
    destruct (nth (i + 1) bytes 0 =? 120)%Z eqn:E1; cbn [negb]; [|discriminate].
    rewrite byte_at_ok by lia. cbn [obind].
    destruct (nth (i + 6) bytes 0 =? 95)%Z eqn:E6; cbn [negb]; [|discriminate].
    (* '_' and 'x' are ASCII: i + 2 is a character start; the '_' at i + 6 is no continuation byte *)
    assert (A2 : at_char (i + 2)).
    { apply (at_char_run i); [exact A|lia|]. intros j Hj. assert (j = i \/ j = i + 1) as [->| ->] by lia; lia. }
    rewrite str_slice_ok; [|lia|lia|apply at_char_boundary, A2|apply boundary_start; [lia|unfold is_cont; lia]].
    cbn [obind]. intros He. apply andb_true_iff in He as [Hhex _].
    (* so are four hex digits *)
    apply (at_char_run (i + 2)); [exact A2|lia|]. intros j Hj.
    destruct (Nat.eq_dec j (i + 6)) as [->|Hne]; [lia|].
    apply hex_lt_128, (forallb_slice _ _ _ _ _ Hhex); unfold blen in G; lia.
  Qed.

  Lemma dloop_safe fuel i : at_char i -> dloop bytes scalar_ok true fuel i <> Panic.
  Proof.
    revert i; induction fuel as [|f IH]; intros i A; cbn [dloop];
      destruct (i <? len) eqn:Hlt; try discriminate.
    apply Nat.ltb_lt in Hlt. pose proof (try_escape_safe i A) as T.
    destruct (try_escape _ _ _ i) as [[|]| |]; try contradiction; cbn [obind].
    - apply IH, T. reflexivity.
    - (* s[i..] is not empty: its first byte is the one at i *)
      rewrite str_slice_ok; [|lia|lia|apply at_char_boundary, A|apply boundary_len]. cbn [obind].
      unfold blen in *. rewrite firstn_all2 by (rewrite skipn_length; lia).
      rewrite (skipn_nth _ _ 0%Z Hlt). apply IH, at_char_next; assumption.
  Qed.

  Theorem decode_cursor_safe : decode_cursor bytes scalar_ok true <> Panic.
  Proof.
    unfold decode_cursor. apply dloop_safe. split; [lia|exact shape].
  Qed.
End Safe.

(* sensitivity: with the off-by-one guard `i + 6 <= len` the cursor model panics on "batch_x2024"
   (the escape look-alike cut off just before its closing '_'): `bytes[i + 6]` with i + 6 = len *)
Definition w_batch : list Z := [98; 97; 116; 99; 104; 95; 120; 50; 48; 50; 52]%Z.

Lemma w_batch_shape : utf8_shape w_batch.
Proof.
  unfold w_batch.
  repeat (apply (shape_char _ [] _); [reflexivity|reflexivity|reflexivity|]). apply shape_nil.
Qed.

Lemma off_by_one_guard_panics : decode_cursor w_batch (fun _ => true) false = Panic.
Proof. vm_compute. reflexivity. Qed.

Lemma code_guard_ok_on_witness : decode_cursor w_batch (fun _ => true) true = Ok tt.
Proof. vm_compute. reflexivity. Qed.
