(* Xlsx/SkeletonProofs.v — the importer skeleton never panics.

   Until the repairs 2db1935, f8b4521, d5aa85e, dfbff56, 256a2e8, 4ecd40d, 1babd25, b7d4aff, b5c23c2 the
   statement was refuted by 17 witness packages and only a guarded form held (the guard listed the
   indexing assumptions of the reader).  Every one of those `[0]` / `[key]` / `unwrap` / slice
   sites is now an `Err` arm (or guarded by `is_char_boundary`), the model follows the code, and
   the statement holds at full strength: for EVERY abstract package the outcome is Ok or Err. *)
From IronCalc Require Import Base.Prelude Xlsx.Skeleton.

Lemma obind_np {A B} (o : outcome A) (f : A -> outcome B) :
  o <> Panic -> (forall a, f a <> Panic) -> obind o f <> Panic.
Proof. destruct o; cbn [obind]; intros H1 H2; [apply H2|discriminate|congruence]. Qed.

Lemma oiter_np {A} (f : A -> outcome unit) (l : list A) :
  (forall x, f x <> Panic) -> oiter f l <> Panic.
Proof. intro H. induction l; cbn [oiter]; [discriminate|]. apply obind_np; auto. Qed.

Lemma omap_np {A B} (f : A -> outcome B) (l : list A) :
  (forall x, f x <> Panic) -> omap f l <> Panic.
Proof.
  intro H. induction l; cbn [omap]; [discriminate|].
  apply obind_np; [apply H|]. intro. apply obind_np; [assumption|discriminate].
Qed.

Lemma omap_cons_ok {A B} (f : A -> outcome B) a l ys :
  omap f (a :: l) = Ok ys -> exists y ys', f a = Ok y /\ omap f l = Ok ys' /\ ys = y :: ys'.
Proof.
  cbn [omap]. destruct (f a) as [y| |]; cbn [obind]; try discriminate.
  destruct (omap f l) as [ys'| |]; cbn [obind]; try discriminate.
  intro H. inversion H. eauto.
Qed.

Lemma omap_length {A B} (f : A -> outcome B) (l : list A) ys :
  omap f l = Ok ys -> length ys = length l.
Proof.
  revert ys; induction l as [|a l IH]; intros ys H; [inversion H; reflexivity|].
  apply omap_cons_ok in H as (y & ys' & _ & H & ->). cbn [length]. f_equal. exact (IH _ H).
Qed.

Lemma omap_in {A B} (f : A -> outcome B) (l : list A) ys x :
  omap f l = Ok ys -> In x l -> exists y, f x = Ok y /\ In y ys.
Proof.
  revert ys; induction l as [|a l IH]; intros ys H Hx; [destruct Hx|].
  apply omap_cons_ok in H as (y & ys' & Ea & H & ->). destruct Hx as [<-|Hx].
  - exists y. split; [exact Ea|apply in_eq].
  - destruct (IH _ H Hx) as (y' & E & I). exists y'. split; [exact E|apply in_cons, I].
Qed.

Lemma omap_out {A B} (f : A -> outcome B) (l : list A) ys y :
  omap f l = Ok ys -> In y ys -> exists x, In x l /\ f x = Ok y.
Proof.
  revert ys; induction l as [|a l IH]; intros ys H Hy; [inversion H; subst; destruct Hy|].
  apply omap_cons_ok in H as (y0 & ys' & Ea & H & ->). destruct Hy as [<-|Hy].
  - exists a. split; [apply in_eq|exact Ea].
  - destruct (IH _ H Hy) as (x & I & E). exists x. split; [apply in_cons, I|exact E].
Qed.

Lemma lookup_in {A} k (l : list (Z * A)) v : lookup k l = Some v -> exists k', In (k', v) l.
Proof.
  induction l as [|[k' v'] l IH]; cbn [lookup]; intros H; [discriminate|].
  destruct (k' =? k).
  - inversion H; subst. exists k'. left; reflexivity.
  - destruct (IH H) as [k'' I]. exists k''. right; exact I.
Qed.

Lemma open_part_inv parts k x :
  open_part parts k = Ok x -> exists k', k = Some k' /\ lookup k' parts = Some (Tree x).
Proof.
  unfold open_part. destruct k as [k|]; [|discriminate].
  destruct (lookup k parts) as [[| |y]|] eqn:E; try discriminate.
  intros H; inversion H; subst. exists k. split; [reflexivity|exact E].
Qed.

Lemma first_or_panic_in {A} (l : list A) a : first_or_panic l = Ok a -> In a l.
Proof. destruct l; cbn; intros H; inversion H; subst; left; reflexivity. Qed.

(* [np] proves a goal [e <> Panic] by following the shape of e: a bind, a loop or a case split
   cannot panic if none of its parts can, and [Ok], [Err] are not [Panic].  The reader functions
   already dealt with come from the hint base [np]; a call of anything else leaves the goal open. *)
Create HintDb np discriminated.
Ltac np_step :=
  lazymatch goal with
  | |- obind _ _ <> Panic => apply obind_np; [|intro]
  | |- oiter _ _ <> Panic => apply oiter_np; intro
  | |- omap _ _ <> Panic => apply omap_np; intro
  | |- (if ?c then _ else _) <> Panic => destruct c
  | |- (match ?x with _ => _ end) <> Panic => destruct x
  | |- (let _ := _ in _) <> Panic => cbv zeta
  | |- _ => solve [discriminate | auto with np]
  end.
Ltac np := unfold ignore, parse_i32, parse_u32, parse_usize; repeat np_step.

(* ---- one lemma per reader function ---- *)
Lemma req_np a x : req a x <> Panic.
Proof. unfold req. np. Qed.
Lemma parse_in_np lo hi v : parse_in lo hi v <> Panic.
Proof. unfold parse_in. np. Qed.
Lemma parse_f64_np v : parse_f64 v <> Panic.
Proof. unfold parse_f64. np. Qed.
Lemma cell_of_np v : cell_of v <> Panic.
Proof. unfold cell_of. np. Qed.
Lemma range_of_np v : range_of v <> Panic.
Proof. unfold range_of. np. Qed.
Lemma open_part_np parts k : open_part parts k <> Panic.
Proof. unfold open_part. np. Qed.
Lemma first_or_err_np {A} (l : list A) : first_or_err l <> Panic.
Proof. unfold first_or_err. np. Qed.
#[local] Hint Resolve req_np parse_in_np parse_f64_np cell_of_np range_of_np open_part_np first_or_err_np : np.

(* styles.rs *)
Lemma color_skel_np x : color_skel x <> Panic.
Proof. unfold color_skel. np. Qed.
#[local] Hint Resolve color_skel_np : np.
Lemma font_skel_np x : font_skel x <> Panic.
Proof. unfold font_skel. np. Qed.
Lemma pattern_fill_skel_np x : pattern_fill_skel x <> Panic.
Proof. unfold pattern_fill_skel. np. Qed.
Lemma side_skel_np x : side_skel x <> Panic.
Proof. unfold side_skel. np. Qed.
#[local] Hint Resolve font_skel_np pattern_fill_skel_np side_skel_np : np.
Lemma fill_skel_np x : fill_skel x <> Panic.
Proof. unfold fill_skel. np. Qed.
#[local] Hint Resolve fill_skel_np : np.
Lemma dxf_skel_np x : dxf_skel x <> Panic.
Proof. unfold dxf_skel. np. Qed.
#[local] Hint Resolve dxf_skel_np : np.
Lemma load_styles_np f : load_styles_skel f <> Panic.
Proof. unfold load_styles_skel. np. Qed.

(* workbook.rs, load_relationships *)
Lemma sheet_skel_np x : sheet_skel x <> Panic.
Proof. unfold sheet_skel. np. Qed.
Lemma defined_name_skel_np n x : defined_name_skel n x <> Panic.
Proof. unfold defined_name_skel. np. Qed.
Lemma rel_skel_np x : rel_skel x <> Panic.
Proof. unfold rel_skel. np. Qed.
#[local] Hint Resolve sheet_skel_np defined_name_skel_np rel_skel_np : np.
Lemma load_workbook_np f : load_workbook_skel f <> Panic.
Proof. unfold load_workbook_skel. np. Qed.
Lemma load_rels_np f : load_rels_skel f <> Panic.
Proof. unfold load_rels_skel. np. Qed.

(* worksheets.rs: the relationships of a sheet *)
Lemma load_table_skel_np parts k : load_table_skel parts k <> Panic.
Proof. unfold load_table_skel. np. Qed.
Lemma comment_skel_np c : comment_skel c <> Panic.
Proof. unfold comment_skel. np. Qed.
#[local] Hint Resolve load_table_skel_np comment_skel_np : np.
Lemma load_comments_skel_np parts k : load_comments_skel parts k <> Panic.
Proof. unfold load_comments_skel. np. Qed.
#[local] Hint Resolve load_comments_skel_np : np.
Lemma sheet_rel_skel_np parts x : sheet_rel_skel parts x <> Panic.
Proof. unfold sheet_rel_skel. np. Qed.
#[local] Hint Resolve sheet_rel_skel_np : np.
Lemma load_sheet_rels_skel_np p g : load_sheet_rels_skel p g <> Panic.
Proof. unfold load_sheet_rels_skel. np. Qed.

(* worksheets.rs: the sheet *)
Lemma col_skel_np x : col_skel x <> Panic.
Proof. unfold col_skel. np. Qed.
Lemma formula_skel_np rc f : formula_skel rc f <> Panic.
Proof. unfold formula_skel. np. Qed.
#[local] Hint Resolve col_skel_np formula_skel_np : np.
Lemma cell_skel_np x : cell_skel x <> Panic.
Proof. unfold cell_skel. np. Qed.
#[local] Hint Resolve cell_skel_np : np.
Lemma row_skel_np x : row_skel x <> Panic.
Proof. unfold row_skel. np. Qed.
#[local] Hint Resolve row_skel_np : np.
Lemma load_sheet_skel_np parts g : load_sheet_skel parts g <> Panic.
Proof. unfold load_sheet_skel, load_columns_skel, load_sheet_color_skel, hyperlink_skel. np. Qed.
#[local] Hint Resolve load_sheet_rels_skel_np load_sheet_skel_np : np.
Lemma load_sheets_skel_np p rels rids : load_sheets_skel p rels rids <> Panic.
Proof. unfold load_sheets_skel, rel_index. np. Qed.
#[local] Hint Resolve load_workbook_np load_rels_np load_styles_np load_sheets_skel_np : np.

Theorem load_skel_no_panic : forall p, load_skel p <> Panic.
Proof. intro p. unfold load_skel. np. Qed.
