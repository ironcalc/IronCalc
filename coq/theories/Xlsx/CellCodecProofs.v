(* Xlsx/CellCodecProofs.v — [dec_cell (enc_cell c) = canonical c] for every cell kind, the exact
   conditions under which nothing is canonicalised, and the kinds that do not survive. *)
From IronCalc Require Import Base.Prelude Base.Dec Codec.XmlEscape Codec.XmlEscapeProofs
  Generated.Tables_c23 Codec.Names Codec.NamesProofs Xlsx.CellCodec.

(* ---------- errors: Display on the way out, get_error_by_english_name on the way in ---------- *)
Lemma read_error_display_b :
  forallb (fun e => Nat.eqb (read_error (Some (display e)) None) e) (seq 0 n_err) = true.
Proof. vm_compute. reflexivity. Qed.

Lemma read_error_display e : err_in_range e = true -> read_error (Some (display e)) None = e.
Proof.
  unfold err_in_range. intro H. apply Nat.ltb_lt in H.
  apply Nat.eqb_eq. exact (seq_forallb _ _ read_error_display_b e H).
Qed.

(* ---------- shared-string index ---------- *)
Lemma read_index_dec si : (0 <=? si) = true -> read_index (Some (dec_of_Z si)) = si.
Proof.
  intro H. apply Z.leb_le in H. unfold dec_of_Z. destruct (si <? 0) eqn:E; [lia|].
  unfold read_index. destruct (dec_of_nonneg si) as [|c r] eqn:D.
  - exfalso. exact (dec_of_nonneg_nonempty si D).
  - rewrite <- D. rewrite dec_of_nonneg_digits by exact H. apply dec_of_nonneg_val. exact H.
Qed.

Lemma read_bool_text b : read_bool (Some (bool_text b)) = b.
Proof. destruct b; reflexivity. Qed.

Lemma style_roundtrip s : match style_attr s with Some s' => s' | None => 0 end = s.
Proof. unfold style_attr. destruct (Z.eqb_spec s 0); congruence. Qed.

Lemma written_ok t : forallb text_char_ok t = true -> written_text t = Ok (xesc t).
Proof. exact (xml_unescape_escape t). Qed.

Lemma canon_text_exact t : negb (collides t) = true -> canon_text t = t.
Proof. intro H. apply negb_true_iff in H. exact (decode_xesc t H). Qed.

Section Proofs.
  Variable num : Type.
  Variable show_num : num -> text.
  Variable read_num : text -> num.
  Variable formula : Type.
  Variable finite : num -> bool.
  (* the law of the Rust primitives format!("{}") and parse::<f64> on FINITE numbers (checked by the
     harness on every generated number); since /repo 3c03706 the reader maps a non-finite <v> to 0 *)
  Hypothesis read_show : forall n, finite n = true -> read_num (show_num n) = n.

  Notation cell := (cell num formula).
  Notation enc := (enc_cell num show_num formula).
  Notation dec := (dec_cell num read_num formula).
  Notation canonical := (canonical num formula).
  Notation exact := (exact num formula).

  (* The reader decides between a value cell and a spill cell from ITS position context, whatever
     the writer started from: [reanchor a c] is c as read at a position whose context is a. *)
  Definition reanchor (a : option (Z * Z)) (c : cell) : cell :=
    let place s v c0 := match a with Some a => CSpill num formula s a v | None => c0 end in
    match c with
    | CBool _ _ b s | CSpill _ _ s _ (SBool _ b) => place s (SBool num b) (CBool num formula b s)
    | CNum _ _ n s | CSpill _ _ s _ (SNum _ n) => place s (SNum num n) (CNum num formula n s)
    | CErr _ _ e s | CSpill _ _ s _ (SErr _ e) => place s (SErr num e) (CErr num formula e s)
    | CStrText _ _ t s | CSpill _ _ s _ (SText _ t) => place s (SText num t) (CStrText num formula t s)
    | _ => c
    end.

  Lemma reanchor_own here (c : cell) : reanchor (anchor_of num formula c) (canonical here c) = canonical here c.
  Proof. destruct c as [| | | | | | | |s a []]; reflexivity. Qed.

  (* every kind, at every position context: the reader returns the canonical form of what the
     writer was given, as a value or a spill cell according to the context.  [fin] is any class of
     numbers that are read back as written *)
  Theorem cell_types_at (fin : num -> bool) a here (c : cell) :
    (forall n, fin n = true -> read_num (show_num n) = n) ->
    evaluated num formula c = true -> texts_ok num formula c = true -> ids_ok num formula c = true ->
    nums_finite num formula fin c = true ->
    exists x, enc c = Ok x /\ dec a here x = reanchor a (canonical here c).
  Proof.
    intros Hrs He Ht Hi Hn.
    destruct c as [s|v s|v s|e s|si s|t s|f s [|b|n|t|e o m]|f s w h k [|b|n|t|e o m]|s a0 [b|n|t|e]];
      cbn [evaluated fval_evaluated texts_ok fval_text_ok ids_ok fval_err_ok nums_finite fval_finite] in *;
      try discriminate He.
    (* the writer; a text goes through the escaping codec *)
    all: cbn [enc_cell enc_value]; rewrite ?written_ok by exact Ht; eexists; (split; [reflexivity|]).
    (* the reader in either context, and what it makes of s=, <v> and t= *)
    all: try destruct k; destruct a;
      cbn [dec_cell cell_type_of x_t x_v x_f x_s x_cm x_vm x_is mk xf_array xf_formula canonical canon_fval
           is_dynamic reanchor];
      unfold read_number.
    all: rewrite ?style_roundtrip, ?read_bool_text, ?Hrs, ?read_error_display, ?read_index_dec by assumption;
      reflexivity.
  Qed.

  (* a cell without a number needs no law about numbers *)
  Lemma cell_types_at_no_number a here (c : cell) :
    evaluated num formula c = true -> texts_ok num formula c = true -> ids_ok num formula c = true ->
    nums_finite num formula (fun _ => false) c = true ->
    exists x, enc c = Ok x /\ dec a here x = reanchor a (canonical here c).
  Proof. apply cell_types_at. discriminate. Qed.

  Theorem cell_types here (c : cell) :
    evaluated num formula c = true -> texts_ok num formula c = true -> ids_ok num formula c = true ->
    nums_finite num formula finite c = true ->
    exists x, enc c = Ok x /\ dec (anchor_of num formula c) here x = canonical here c.
  Proof.
    intros He Ht Hi Hn. rewrite <- (reanchor_own here c). apply (cell_types_at finite); assumption.
  Qed.

  (* nothing at all is lost exactly under [exact] *)
  Lemma canonical_exact here (c : cell) : exact here c = true -> canonical here c = c.
  Proof.
    destruct c as [s|v s|v s|e s|si s|t s|f s [|b|n|t|e o m]|f s w h k [|b|n|t|e o m]|s a [b|n|t|e]];
      cbn [CellCodec.exact fval_exact CellCodec.canonical canon_fval]; intro H; try reflexivity;
      try (rewrite canon_text_exact by exact H; reflexivity).
    all: apply andb_true_iff in H as [Ho Hm]; apply text_eqb_eq in Ho, Hm; congruence.
  Qed.

  Theorem cell_types_exact here (c : cell) :
    evaluated num formula c = true -> texts_ok num formula c = true -> ids_ok num formula c = true ->
    nums_finite num formula finite c = true -> exact here c = true ->
    exists x, enc c = Ok x /\ dec (anchor_of num formula c) here x = c.
  Proof.
    intros He Ht Hi Hn Hx. destruct (cell_types here c He Ht Hi Hn) as [x [E D]].
    exists x. split; [exact E|]. rewrite D. exact (canonical_exact here c Hx).
  Qed.

  (* ---------- the kinds that do not survive ---------- *)

  (* a formula that has not been evaluated: the writer panics *)
  Lemma unevaluated_enc_panics (c : cell) : evaluated num formula c = false -> enc c = Panic.
  Proof. destruct c as [| | | | | |f s []|f s w h k []|]; try discriminate; reflexivity. Qed.
  Lemma unevaluated_panics f s : enc (CFormula num formula f s (FUneval num)) = Panic.
  Proof. apply unevaluated_enc_panics. reflexivity. Qed.
  Lemma unevaluated_array_panics f s w h k : enc (CArray num formula f s w h k (FUneval num)) = Panic.
  Proof. apply unevaluated_enc_panics. reflexivity. Qed.

  (* a spill cell that is not inside the range of an array formula written before it (the reader's
     [anchor] is None) comes back as an ordinary value cell *)
  Lemma orphan_spill_number here s a n : finite n = true ->
    exists x, enc (CSpill num formula s a (SNum num n)) = Ok x /\ dec None here x = CNum num formula n s.
  Proof. intro Hf. apply (cell_types_at finite None); trivial. Qed.
  Lemma orphan_spill_bool here s a b :
    exists x, enc (CSpill num formula s a (SBool num b)) = Ok x /\ dec None here x = CBool num formula b s.
  Proof. apply (cell_types_at_no_number None); trivial. Qed.
  Lemma orphan_spill_text here s a t : forallb text_char_ok t = true ->
    exists x, enc (CSpill num formula s a (SText num t)) = Ok x /\ dec None here x = CStrText num formula (canon_text t) s.
  Proof. intro Ht. apply (cell_types_at_no_number None); trivial. Qed.
  (* ... and a value cell inside such a range comes back as a spill cell *)
  Lemma covered_value_becomes_spill here s a n : finite n = true ->
    exists x, enc (CNum num formula n s) = Ok x /\ dec (Some a) here x = CSpill num formula s a (SNum num n).
  Proof. intro Hf. apply (cell_types_at finite (Some a)); trivial. Qed.

  (* a non-finite number (the engine can hold inf: C08) is written as "inf" / "NaN" and read as
     whatever the reader's fallback is (0.0 since /repo 3c03706) *)
  Lemma nonfinite_number_replaced here s n z : read_num (show_num n) = z ->
    exists x, enc (CNum num formula n s) = Ok x /\ dec None here x = CNum num formula z s.
  Proof.
    intros <-. eexists. split; [reflexivity|].
    cbn [dec_cell cell_type_of x_t x_v x_f x_s mk]. rewrite style_roundtrip. reflexivity.
  Qed.
End Proofs.
