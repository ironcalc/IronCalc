(* Xlsx/FormulaText.v — formula text through the xlsx file (part of C24).

   A formula is written as  escape_xml (to_excel_string node)  into <f>…</f>, read back by the XML
   parser and parsed by the English parser in A1 mode (import/worksheets.rs from_a1_to_rc).
   Two layers:
   (1) tokens: the C09 round-trip theorem instantiated at the xlsx printer mode, with the name
       tables of the compiled code (Generated/Tables_c23.v): function names are [xlsx_name],
       read back by the English lookup; [xlsx_fun_names_ok] discharges C09's side condition on
       function names for ALL built-in functions (this is C23's xlsx-name theorem in C09's terms).
       What to_excel_string does before printing (remove_redundant_implicit_intersection,
       prefix_bound_variables) and what the reader does after parsing (add_implicit_intersection)
       are NOT modelled: oracle only (finding: an automatic @ is added to names).
   (2) characters: the text is escaped on export but the reader never calls decode_xlsx_escapes
       on it: it comes back as [xesc text]; unchanged iff it has no control character and no
       `_xHHHH_` look-alike ([formula_chars_ok]). *)
From IronCalc Require Import Base.Prelude Codec.RefA1 Syntax.Token Syntax.Ast Syntax.Printer Syntax.Parser
  Syntax.Shape Syntax.RoundTrip Syntax.FuelProofs Codec.XmlEscape Codec.XmlEscapeProofs.
From IronCalc Require Generated.Tables_c23 Codec.Names Codec.NamesProofs.

(* ---------- (1) tokens ---------- *)
Definition xlsx_mode (row col : Z) : pmode :=
  {| pm_rc := false; pm_xlsx := true; pm_dot := true; pm_row := row; pm_col := col |}.

(* the English tables, as the reader uses them; [lower] = str::to_lowercase, which only the
   premise lower_stable (user-defined function names) looks at *)
Definition xlsx_names (lower : text -> text) : names :=
  {| fn_name := fun f => Names.xlsx_name (Z.to_nat f);
     fn_lookup := fun t => option_map Z.of_nat (Names.lookup 0 t);
     bool_of_name := fun t => if text_eqb (Names.upper t) (Names.true_name 0) then Some true
                              else if text_eqb (Names.upper t) (Names.false_name 0) then Some false else None;
     fn_true := Z.of_nat Tables_c23.fn_true;
     fn_false := Z.of_nat Tables_c23.fn_false;
     nm_lower := lower;
     nm_upper := Names.upper;
     err_tokens := fun k => match Names.lex_error 0 (Names.display (Z.to_nat k)) with
                            | Some (e, []) => [TError (Z.of_nat e)]
                            | _ => []
                            end |}.

Definition id_text (t : text) : text := t.

(* Function::Lambda is the one exception by construction: `_xlfn.LAMBDA(` is parsed by parse_lambda
   into a LambdaDefKind, never into FunctionKind{Lambda}; C09 treats lambdas as their own node *)
Lemma xlsx_fun_names_b lower :
  forallb (fun n => Nat.eqb n Tables_c23.fn_lambda || fun_name_ok (xlsx_names lower) (Z.of_nat n)) (seq 0 Tables_c23.n_fn) = true.
Proof. vm_compute. reflexivity. Qed.

(* every built-in function's xlsx name satisfies C09's condition "the name the printer writes is
   read back as that function" *)
Lemma xlsx_fun_names_ok lower f : 0 <= f < Z.of_nat Tables_c23.n_fn -> f <> Z.of_nat Tables_c23.fn_lambda ->
  fun_name_ok (xlsx_names lower) f = true.
Proof.
  intros H Hl.
  pose proof (NamesProofs.seq_forallb _ _ (xlsx_fun_names_b lower) (Z.to_nat f) ltac:(lia)) as A. cbv beta in A.
  rewrite Z2Nat.id in A by lia. apply orb_true_iff in A as [A|A]; [|exact A].
  apply Nat.eqb_eq in A. lia.
Qed.

(* the English lexer reads every error back from its Display form (12 of 12 since /repo 4a681a0) *)
Lemma xlsx_err_tokens_b :
  forallb (fun n => match err_tokens (xlsx_names id_text) (Z.of_nat n) with [TError k] => Z.of_nat n =? k | _ => false end)
          (seq 0 Names.n_err) = true.
Proof. vm_compute. reflexivity. Qed.

(* the C09 theorem at the xlsx mode *)
Theorem formula_tokens_roundtrip lower env row col e :
  image (xlsx_mode row col) (xlsx_names lower) env e = true ->
  no_bad true e = true ->
  lower_stable (xlsx_names lower) e = true ->
  parse (xlsx_mode row col) (xlsx_names lower) env (print (xlsx_mode row col) (xlsx_names lower) e) = Some (e, []).
Proof. exact (roundtrip_parse _ _ env e). Qed.

(* ---------- (2) characters ---------- *)
Fixpoint formula_chars_ok (t : text) : bool :=
  match t with
  | [] => true
  | c :: r => negb (needs_xlsx_escape c) && negb ((c =? 95) && starts_pattern t) && formula_chars_ok r
  end.

Lemma xesc_id t : formula_chars_ok t = true -> xesc t = t.
Proof.
  induction t as [|c r IH]; intro H; [reflexivity|].
  cbn [formula_chars_ok] in H. apply andb_true_iff in H as [H Hr]. apply andb_true_iff in H as [Hn Hp].
  apply negb_true_iff in Hn, Hp. cbn [xesc]. rewrite Hn, Hp. cbn [app]. rewrite IH by exact Hr. reflexivity.
Qed.

(* what the reader's parser is given for a formula text t *)
Definition formula_text_read (t : text) : outcome text := xml_unescape (escape t).

Theorem formula_chars_partial t :
  forallb text_char_ok t = true -> formula_chars_ok t = true -> formula_text_read t = Ok t.
Proof.
  intros Hok Hc. unfold formula_text_read. rewrite xml_unescape_escape by exact Hok.
  rewrite xesc_id by exact Hc. reflexivity.
Qed.

(* ="<U+0001>" comes back as ="_x0001_", and ="_x0041_" as ="_x005F_x0041_" *)
Lemma formula_chars_refuted :
  formula_text_read [34; 1; 34] = Ok [34; 95; 120; 48; 48; 48; 49; 95; 34] /\
  formula_text_read [34; 95; 120; 48; 48; 52; 49; 95; 34] = Ok [34; 95; 120; 48; 48; 53; 70; 95; 120; 48; 48; 52; 49; 95; 34].
Proof. vm_compute. split; reflexivity. Qed.
