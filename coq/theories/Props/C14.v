(* Props/C14.v — Inserting then deleting the same rows or columns is the identity.
   Statements only; proofs are [exact] into Syntax/DisplaceProofs.v or a line or two that
   instantiate a more general lemma of it. Scope: positions of
   cells/links/row descriptors ([cell_map]) and stored references (the whole rewrite, twice).
   Cell contents (two re-typings), column descriptors (Sheet/Cols.v, C29) and values are decided
   on the implementation by the dump-equality oracle (notes/C14.md). *)
From IronCalc Require Import Base.Prelude Base.Dec Codec.Column Codec.RefA1
  Syntax.Displace Syntax.DisplaceProofs.

Theorem C14_cell_map_rows :
  forall s r k p, 0 < k ->
  exists p', cell_map (DRow s r k) p = Some p' /\ cell_map (DRow s r (- k)) p' = Some p.
Proof.
  intros s r k [row col] Hk. exists (if r <=? row then row + k else row, col). cbn [cell_map].
  rewrite line_map_ins, ins_del_line by exact Hk. split; reflexivity.
Qed.
Print Assumptions C14_cell_map_rows.

Theorem C14_cell_map_columns :
  forall s c k p, 0 < k ->
  exists p', cell_map (DCol s c k) p = Some p' /\ cell_map (DCol s c (- k)) p' = Some p.
Proof.
  intros s c k [row col] Hk. exists (row, if c <=? col then col + k else col). cbn [cell_map].
  rewrite line_map_ins, ins_del_line by exact Hk. split; reflexivity.
Qed.
Print Assumptions C14_cell_map_columns.

(* nothing lands in the inserted band, so the deletion deletes only blank lines *)
Theorem C14_inserted_band_is_empty :
  forall x r k y, 0 < k -> line_map x r k = Some y -> y < r \/ r + k <= y.
Proof. exact ins_misses_band. Qed.
Print Assumptions C14_inserted_band_is_empty.

(* stored references: re-type in the moved cell, displace, re-parse — for the insertion and
   then for the deletion — gives back the anchor and the stored reference, for formulas on the
   edited sheet or elsewhere, references to any sheet, all flag combinations, provided the
   insertion pushed the target not beyond the last row / column *)
Theorem C14_refs_rows :
  forall s r k same q a,
  0 < k ->
  1 <= fst (resolve q a) -> 1 <= snd (resolve q a) <= LAST_COLUMN ->
  (if r <=? fst (resolve q a) then fst (resolve q a) + k else fst (resolve q a)) <= LAST_ROW ->
  then_disp (DRow s r k) (DRow s r (- k)) same q a = Some (q, a).
Proof. exact ins_del_ref_rows. Qed.
Print Assumptions C14_refs_rows.

Theorem C14_refs_columns :
  forall s c k same q a,
  0 < k ->
  1 <= fst (resolve q a) <= LAST_ROW -> 1 <= snd (resolve q a) ->
  (if c <=? snd (resolve q a) then snd (resolve q a) + k else snd (resolve q a)) <= LAST_COLUMN ->
  then_disp (DCol s c k) (DCol s c (- k)) same q a = Some (q, a).
Proof. exact ins_del_ref_cols. Qed.
Print Assumptions C14_refs_columns.

(* the general principle both instances use *)
Theorem C14_inverse_edits_restore_references :
  forall d1 d2 same q a q1 t1,
  1 <= fst (resolve q a) <= LAST_ROW -> 1 <= snd (resolve q a) <= LAST_COLUMN ->
  anchor_map d1 same q = Some q1 -> anchor_map d2 same q1 = Some q ->
  displace_pos d1 false false (a_sheet a) (resolve q a) = Some t1 ->
  displace_pos d2 false false (a_sheet a) t1 = Some (resolve q a) ->
  1 <= fst t1 <= LAST_ROW -> 1 <= snd t1 <= LAST_COLUMN ->
  then_disp d1 d2 same q a = Some (q, a).
Proof. exact then_disp_inverse. Qed.
Print Assumptions C14_inverse_edits_restore_references.

(* non-vacuity: "=$D5" (row relative) in C7, two rows inserted at row 3 and deleted again *)
Example C14_nonvacuous :
  then_disp (DRow 0 3 2) (DRow 0 3 (-2)) true (7, 3)
    {| a_sheet := 0; a_row := -2; a_col := 4; a_abs_row := false; a_abs_col := true |} =
  Some ((7, 3), {| a_sheet := 0; a_row := -2; a_col := 4; a_abs_row := false; a_abs_col := true |}).
Proof. exact then_disp_example. Qed.
