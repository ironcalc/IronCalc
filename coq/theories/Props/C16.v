(* Props/C16.v — Cut and paste moves meaning, copy and paste translates it.
   Statements only; every proof is [exact <lemma>] into Syntax/PrinterMovedProofs.v.

   Copy: extend_copied_value parses at the source cell and prints (stringify) at the target cell; the
   tree is the translation, so the statement is C09 at the target anchor ([C16_copy]).
   Cut: move_cell_value_to_area prints with the SECOND printer to_string_moved ([PrinterMoved.print_moved]),
   which omits almost all parentheses, hard-codes ',' and English booleans and mis-nests arrays (F05): the
   full-strength statement is refuted ([C16_cut_print_refuted_*]) and proved for the complement
   ([C16_cut_print_partial]: trees of [moved_class] without a bad pair relative to [moved_policy]). *)
From IronCalc Require Import Base.Prelude Codec.RefA1 Syntax.Token Syntax.Ast Syntax.Printer Syntax.Parser
  Syntax.Shape Syntax.PrinterMoved Syntax.PrinterMovedProofs.

(* ---- references --------------------------------------------------------------------------------- *)
(* a reference into the cut area: same sheet name, same $ flags, and — read from the target cell —
   it denotes the cell shifted by the paste delta *)
Theorem C16_cut_refs_in_area :
  forall mc s idx p, pref_in_area mc idx p = true ->
  let '(s', p') := move_ref mc s idx p in
  s' = s /\ p_abs_row p' = p_abs_row p /\ p_abs_col p' = p_abs_col p /\
  tgt_row mc (rebase mc p') = abs_row mc p + mc_drow mc /\
  tgt_col mc (rebase mc p') = abs_col mc p + mc_dcol mc.
Proof. exact cut_ref_in_area. Qed.
Print Assumptions C16_cut_refs_in_area.

(* any other reference denotes the same cell as before, and is qualified with the source sheet's name
   exactly when it had none and the paste goes to another sheet *)
Theorem C16_cut_refs_outside :
  forall mc s idx p, pref_in_area mc idx p = false ->
  let '(s', p') := move_ref mc s idx p in
  s' = qualify mc s /\ p_abs_row p' = p_abs_row p /\ p_abs_col p' = p_abs_col p /\
  tgt_row mc (rebase mc p') = abs_row mc p /\
  tgt_col mc (rebase mc p') = abs_col mc p.
Proof. exact cut_ref_outside. Qed.
Print Assumptions C16_cut_refs_outside.

Theorem C16_cut_qualification :
  forall mc s, qualify mc s = match s with
                              | Some n => Some n
                              | None => if text_eqb (mc_tgt_name mc) (mc_src_name mc) then None else Some (mc_src_name mc)
                              end.
Proof. exact qualify_spec. Qed.
Print Assumptions C16_cut_qualification.

Theorem C16_in_area_is_the_rectangle :
  forall sheet row col a, ref_is_in_area sheet row col a = true <->
  ma_sheet a = sheet /\ ma_row a <= row <= ma_row a + ma_height a - 1 /\ ma_col a <= col <= ma_col a + ma_width a - 1.
Proof. exact ref_is_in_area_spec. Qed.
Print Assumptions C16_in_area_is_the_rectangle.

(* ranges move iff both corners are inside *)
Theorem C16_cut_ranges_inside :
  forall mc s idx p1 p2, pref_in_area mc idx p1 = true -> pref_in_area mc idx p2 = true ->
  let '(s', q1, q2) := move_range mc s idx p1 p2 in
  s' = s /\
  tgt_row mc (rebase mc q1) = abs_row mc p1 + mc_drow mc /\ tgt_col mc (rebase mc q1) = abs_col mc p1 + mc_dcol mc /\
  tgt_row mc (rebase mc q2) = abs_row mc p2 + mc_drow mc /\ tgt_col mc (rebase mc q2) = abs_col mc p2 + mc_dcol mc.
Proof. exact cut_range_inside. Qed.
Print Assumptions C16_cut_ranges_inside.

Theorem C16_cut_ranges_not_inside :
  forall mc s idx p1 p2, pref_in_area mc idx p1 && pref_in_area mc idx p2 = false ->
  let '(s', q1, q2) := move_range mc s idx p1 p2 in
  s' = qualify mc s /\
  tgt_row mc (rebase mc q1) = abs_row mc p1 /\ tgt_col mc (rebase mc q1) = abs_col mc p1 /\
  tgt_row mc (rebase mc q2) = abs_row mc p2 /\ tgt_col mc (rebase mc q2) = abs_col mc p2.
Proof. exact cut_range_not_inside. Qed.
Print Assumptions C16_cut_ranges_not_inside.

(* ---- the pass over the formulas outside the cut area -------------------------------------------- *)
(* the cells get_external_formula_updates_for_cut leaves alone are exactly the cells of the cut area;
   in particular a formula on another sheet is never skipped, whatever its coordinates *)
Theorem C16_external_skipped_is_the_cut_area :
  forall a sheet row col, external_skipped a sheet row col = ref_is_in_area sheet row col a.
Proof. exact external_skipped_is_in_area. Qed.
Print Assumptions C16_external_skipped_is_the_cut_area.

Theorem C16_external_other_sheet_never_skipped :
  forall a sheet row col, sheet <> ma_sheet a -> external_skipped a sheet row col = false.
Proof. exact external_other_sheet_never_skipped. Qed.
Print Assumptions C16_external_other_sheet_never_skipped.

(* ---- copy --------------------------------------------------------------------------------------- *)
Theorem C16_copy :
  forall m_target nm env e,
  image m_target nm env e = true -> no_bad (pm_xlsx m_target) e = true -> lower_stable nm e = true ->
  parse m_target nm env (print m_target nm e) = Some (e, []).
Proof. exact FuelProofs.roundtrip_parse. Qed.
Print Assumptions C16_copy.

Theorem C16_copy_offgrid :
  forall m nm s p, pm_rc m = false ->
  let row := if p_abs_row p then p_row p else p_row p + pm_row m in
  let col := if p_abs_col p then p_col p else p_col p + pm_col m in
  (row < 1 \/ col < 1 \/ LAST_COLUMN < col) -> print_ref m nm s p = err_tokens nm 0.
Proof. exact copy_offgrid. Qed.
Print Assumptions C16_copy_offgrid.

Theorem C16_copy_ongrid :
  forall m nm s p, pm_rc m = false ->
  let row := if p_abs_row p then p_row p else p_row p + pm_row m in
  let col := if p_abs_col p then p_col p else p_col p + pm_col m in
  1 <= row -> 1 <= col <= LAST_COLUMN ->
  print_ref m nm s p = [TReference s {| p_row := row; p_col := col; p_abs_col := p_abs_col p; p_abs_row := p_abs_row p |}].
Proof. exact copy_ongrid. Qed.
Print Assumptions C16_copy_ongrid.

(* beyond the last row there is no #REF! (F41, C12's finding, here for copies) *)
Theorem C16_copy_row_overflow_refuted :
  let m := {| pm_rc := false; pm_xlsx := false; pm_dot := true; pm_row := LAST_ROW; pm_col := 1 |} in
  let p := {| p_row := 1; p_col := 0; p_abs_col := false; p_abs_row := false |} in
  forall nm, print_ref m nm None p = [TReference None {| p_row := LAST_ROW + 1; p_col := 1; p_abs_col := false; p_abs_row := false |}].
Proof. exact copy_row_overflow_refuted. Qed.
Print Assumptions C16_copy_row_overflow_refuted.

(* ---- cut: the printed text ------------------------------------------------------------------------ *)
(* the statement at full strength: for every parser image, the pasted text parses at the target cell to
   the moved tree *)
Definition C16_cut_print : Prop :=
  forall mc dot nm env tidx e,
  image (m_tgt mc dot) nm env (move_ast mc tidx e) = true ->
  parse (m_tgt mc dot) nm env (print_moved mc dot nm e) = Some (move_ast mc tidx e, []).

Theorem C16_cut_print_refuted : ~ C16_cut_print.
Proof. exact (fun H => proj2 cut_refuted_sub_sub (H mc0 true nm_en0 env_m tidx0 _ (proj1 cut_refuted_sub_sub))). Qed.
Print Assumptions C16_cut_print_refuted.

Theorem C16_cut_print_refuted_sub_sub : cut_refutes true nm_en0 (ESum SMinus k1 (ESum SMinus k2 k3)).
Proof. exact cut_refuted_sub_sub. Qed.
Print Assumptions C16_cut_print_refuted_sub_sub.
Theorem C16_cut_print_refuted_neg_sum : cut_refutes true nm_en0 (ENeg (ESum SAdd k1 k2)).
Proof. exact cut_refuted_neg_sum. Qed.
Print Assumptions C16_cut_print_refuted_neg_sum.
Theorem C16_cut_print_refuted_pow_sum : cut_refutes true nm_en0 (EPow (ESum SAdd k1 k2) k2).
Proof. exact cut_refuted_pow_sum. Qed.
Print Assumptions C16_cut_print_refuted_pow_sum.
Theorem C16_cut_print_refuted_pow_pow : cut_refutes true nm_en0 (EPow k2 (EPow k3 k2)).
Proof. exact cut_refuted_pow_pow. Qed.
Print Assumptions C16_cut_print_refuted_pow_pow.
Theorem C16_cut_print_refuted_concat_cmp : cut_refutes true nm_en0 (EConcat k1 (ECmp CEq k2 k3)).
Proof. exact cut_refuted_concat_cmp. Qed.
Print Assumptions C16_cut_print_refuted_concat_cmp.
Theorem C16_cut_print_refuted_sum_concat : cut_refutes true nm_en0 (ESum SAdd (EConcat k1 k2) k3).
Proof. exact cut_refuted_sum_concat. Qed.
Print Assumptions C16_cut_print_refuted_sum_concat.
Theorem C16_cut_print_refuted_pct_sum : cut_refutes true nm_en0 (EPct (ESum SAdd k1 k2)).
Proof. exact cut_refuted_pct_sum. Qed.
Print Assumptions C16_cut_print_refuted_pct_sum.
Theorem C16_cut_print_refuted_pow_prod : cut_refutes true nm_en0 (EPow (EProd PTimes k2 k3) k2).
Proof. exact cut_refuted_pow_prod. Qed.
Print Assumptions C16_cut_print_refuted_pow_prod.
Theorem C16_cut_print_refuted_array :
  cut_refutes true nm_en0 (EArray [[ANum false [49]; ANum false [50]]; [ANum false [51]; ANum false [52]]]).
Proof. exact cut_refuted_array. Qed.
Print Assumptions C16_cut_print_refuted_array.
Theorem C16_cut_print_refuted_arg_separator : cut_refutes false nm_en0 (ENamedFun None [102] [k1; k2]).
Proof. exact cut_refuted_arg_separator. Qed.
Print Assumptions C16_cut_print_refuted_arg_separator.
Theorem C16_cut_print_refuted_boolean_english : cut_refutes true nm_es0 (EBool true).
Proof. exact cut_refuted_boolean_english. Qed.
Print Assumptions C16_cut_print_refuted_array.

(* on its class the second printer is the generic printer of C09 with the policy [moved_policy] *)
Theorem C16_moved_printer_is_policy_printer :
  forall mc dot nm tidx e, moved_class dot nm e = true ->
  print_moved mc dot nm e = gprint (m_tgt mc dot) nm moved_policy (move_ast mc tidx e).
Proof. exact print_moved_is_gprint. Qed.
Print Assumptions C16_moved_printer_is_policy_printer.

(* the complement: every tree of the class (no array literal, no LAMBDA, booleans only where the language
   says TRUE/FALSE, calls with two or more arguments only where the separator is ',', user function names
   in lower case) that has no bad pair relative to [moved_policy] — C09's theorem for an arbitrary policy *)
Theorem C16_cut_print_partial :
  forall mc dot nm env tidx e,
  moved_class dot nm e = true ->
  image (m_tgt mc dot) nm env (move_ast mc tidx e) = true ->
  no_bad_with moved_policy false (move_ast mc tidx e) = true ->
  lower_stable nm (move_ast mc tidx e) = true ->
  parse (m_tgt mc dot) nm env (print_moved mc dot nm e) = Some (move_ast mc tidx e, []).
Proof. exact cut_print_partial. Qed.
Print Assumptions C16_cut_print_partial.

Example C16_cut_print_partial_nonvacuous :
  ltac:(let t := type of cut_print_partial_nonvacuous in exact t).
Proof. exact cut_print_partial_nonvacuous. Qed.
