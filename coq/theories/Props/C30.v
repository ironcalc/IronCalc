(* Props/C30.v — Styles are stored and read back faithfully.
   Statements only; every proof is [exact <lemma>] into Sheet/StylesProofs.v.

   Vocabulary (Sheet/Styles.v): [styles] are the pools (num_fmts, fonts, fills, borders, cell_xfs);
   [intern] is Styles::get_style_index_or_create, which every set_cell_style / set_row_style /
   set_column_style goes through; [get_style] resolves an index; [intern_all] is a history of
   assignments.  Fonts, fills, borders and alignments are arbitrary types with an equality test of
   which only soundness is assumed (premises of the theorems).  [wf_styles]: component ids in
   range, custom format ids distinct, a custom format with a built-in id carries the built-in code,
   no record refers to an undefined custom id. *)
From IronCalc Require Import Base.Prelude Generated.NumFmts_c30 Sheet.Cols Sheet.ColsProofs Sheet.Rows
  Sheet.Styles Sheet.StylesProofs Sheet.StyleLayer Sheet.StyleLayerProofs.

Section C30.
Variables font fill border align : Type.
Variable font_eqb : font -> font -> bool.
Variable fill_eqb : fill -> fill -> bool.
Variable border_eqb : border -> border -> bool.
Variable align_eqb : align -> align -> bool.
Hypothesis font_eqb_eq : forall a b, font_eqb a b = true -> a = b.
Hypothesis fill_eqb_eq : forall a b, fill_eqb a b = true -> a = b.
Hypothesis border_eqb_eq : forall a b, border_eqb a b = true -> a = b.
Hypothesis align_eqb_eq : forall a b, align_eqb a b = true -> a = b.

Notation intern := (intern font_eqb fill_eqb border_eqb align_eqb).
Notation intern_all := (intern_all font_eqb fill_eqb border_eqb align_eqb).

(* READ-BACK: the index handed out for a style resolves to that style *)
Theorem C30_readback :
  forall (st : styles font fill border align) s st' i,
  wf_styles st -> intern st s = Ok (st', i) -> get_style st' i = Ok s.
Proof. exact (intern_readback font_eqb_eq fill_eqb_eq border_eqb_eq align_eqb_eq). Qed.

(* STABILITY: an assignment never changes what an existing index resolves to; pools only grow *)
Theorem C30_stable :
  forall (st : styles font fill border align) s st' i,
  wf_styles st -> intern st s = Ok (st', i) ->
  (forall k, 0 <= k < len (st_xfs st) -> get_style st' k = get_style st k) /\ extends st st'.
Proof. exact (intern_stable font_eqb_eq fill_eqb_eq border_eqb_eq align_eqb_eq). Qed.

(* well-formedness is an invariant, and on well-formed pools no assignment panics *)
Theorem C30_wf_preserved :
  forall (st : styles font fill border align) s st' i,
  wf_styles st -> intern st s = Ok (st', i) -> wf_styles st'.
Proof. exact (intern_wf font_eqb_eq fill_eqb_eq border_eqb_eq align_eqb_eq). Qed.

Theorem C30_no_panic :
  forall (st : styles font fill border align) ss, wf_styles st -> exists r, intern_all st ss = Ok r.
Proof. exact (intern_all_total font_eqb_eq fill_eqb_eq border_eqb_eq align_eqb_eq). Qed.

(* HISTORIES: after any sequence of assignments, every index handed out along the way resolves,
   in the final pools, to the style it was handed out for *)
Theorem C30_history_readback :
  forall (st : styles font fill border align) ss st' is,
  wf_styles st -> intern_all st ss = Ok (st', is) ->
  Forall2 (fun s i => get_style st' i = Ok s) ss is.
Proof. exact (intern_all_readback font_eqb_eq fill_eqb_eq border_eqb_eq align_eqb_eq). Qed.

(* NO SHARING: different styles assigned anywhere in a history never get the same index *)
Theorem C30_no_sharing :
  forall (st : styles font fill border align) ss st' is a b sa sb ia ib,
  wf_styles st -> intern_all st ss = Ok (st', is) ->
  nth_error ss a = Some sa -> nth_error is a = Some ia ->
  nth_error ss b = Some sb -> nth_error is b = Some ib ->
  sa <> sb -> ia <> ib.
Proof. exact (no_sharing font_eqb_eq fill_eqb_eq border_eqb_eq align_eqb_eq). Qed.

(* CELLS: Model::set_cell_style then Model::get_style_for_cell returns the style; every other cell
   reads the same index as before, and that index resolves to the same style as before *)
Theorem C30_cells :
  forall (st : styles font fill border align) s st' i l r c l',
  wf_styles st -> intern st s = Ok (st', i) -> set_cell_style l r c i = Ok l' ->
  get_style st' (get_cell_style_index l' r c) = Ok s /\
  forall r' c', (r', c') <> (r, c) ->
    get_cell_style_index l' r' c' = get_cell_style_index l r' c' /\
    (0 <= get_cell_style_index l r' c' < len (st_xfs st) ->
     get_style st' (get_cell_style_index l' r' c') = get_style st (get_cell_style_index l r' c')).
Proof. exact (cell_assignment font_eqb_eq fill_eqb_eq border_eqb_eq align_eqb_eq). Qed.

(* ROW CELLS: a non-default style assigned to a row is read by the row getter and by every cell of
   the row that has no style of its own — on ANY layer, i.e. whatever record the row had before
   (none; one created by set_row_height / set_row_hidden; one carrying the default style; one
   whose style was deleted) *)
Theorem C30_row_cells :
  forall (st : styles font fill border align) s st' i down l r l',
  wf_styles st -> intern st s = Ok (st', i) -> i <> 0 -> layer_set_row_style down l r i = Ok l' ->
  (exists k, Rows.get_row_style (l_rows l') r = Some k /\ get_style st' k = Ok s) /\
  forall c, get_cell_style_or_none l' r c = None -> get_style st' (get_cell_style_index l' r c) = Ok s.
Proof. exact (row_assignment font_eqb_eq fill_eqb_eq border_eqb_eq align_eqb_eq). Qed.

(* COLUMN CELLS: the same for columns, on any layer and any descriptor layout *)
Theorem C30_column_cells :
  forall (st : styles font fill border align) s st' i down up l c l',
  (forall w, up (down w) = w) ->
  wf_styles st -> intern st s = Ok (st', i) -> layer_set_column_style down up l c i = Ok l' ->
  (exists k, style_at (l_cols l') c = Some k /\ get_style st' k = Ok s) /\
  forall r, get_cell_style_or_none l' r c = None ->
    (match find_row r (l_rows l') with Some x => r_custom_format x = false | None => True end) ->
    get_style st' (get_cell_style_index l' r c) = Ok s.
Proof. exact (column_assignment font_eqb_eq fill_eqb_eq border_eqb_eq align_eqb_eq). Qed.

End C30.
Print Assumptions C30_row_cells.
Print Assumptions C30_column_cells.
Print Assumptions C30_cells.
Print Assumptions C30_readback.
Print Assumptions C30_stable.
Print Assumptions C30_wf_preserved.
Print Assumptions C30_no_panic.
Print Assumptions C30_history_readback.
Print Assumptions C30_no_sharing.

(* ROWS: the row record carries the index (Model::get_row_style resolves it: C30_readback); cells
   of the row without a style of their own read it, except that index 0 (the default style)
   switches custom_format off and the cell falls through to the column style *)
Theorem C30_rows :
  forall down l r i l',
  layer_set_row_style down l r i = Ok l' ->
  Rows.get_row_style (l_rows l') r = Some i /\
  forall c, cell_style r c (l_cells l') = None ->
    get_cell_style_index l' r c =
    if i =? 0 then match find_col c (l_cols l') with
                   | Some d => match c_style d with Some k => k | None => 0 end
                   | None => 0 end
    else i.
Proof. exact set_row_style_layer. Qed.
Print Assumptions C30_rows.

(* COLUMNS: the descriptor carries the index and the cells of the column (no own style, row
   without custom_format) read it — any descriptor layout (the C29 exclusion is gone with the
   repair of F23a) *)
Theorem C30_columns :
  forall down up, (forall w, up (down w) = w) ->
  forall l c i l',
  layer_set_column_style down up l c i = Ok l' ->
  style_at (l_cols l') c = Some i /\
  forall r, cell_style r c (l_cells l') = None ->
    (match find_row r (l_rows l') with Some x => r_custom_format x = false | None => True end) ->
    get_cell_style_index l' r c = i.
Proof. exact set_column_style_layer. Qed.
Print Assumptions C30_columns.

(* ORDER: height / width / hidden operations on any row or column, on any layer, change the style
   no cell reads *)
Theorem C30_size_ops_keep_cell_styles :
  forall down up, (forall w, up (down w) = w) ->
  forall l o r c,
  (match o with LRowHeight _ _ | LRowHidden _ _ | LColWidth _ _ | LColHidden _ _ => True | _ => False end) ->
  get_cell_style_index (step_lop down up l o) r c = get_cell_style_index l r c /\
  get_cell_style_or_none (step_lop down up l o) r c = get_cell_style_or_none l r c.
Proof. exact size_ops_keep_cell_styles. Qed.
Print Assumptions C30_size_ops_keep_cell_styles.

(* the pools of a new workbook (Styles::default) are well formed *)
Theorem C30_default_pools_wf :
  forall (font fill border align : Type) (f0 : font) (fi0 : fill) (b0 : border),
  @wf_styles font fill border align (mkStyles [] [f0] [fi0; fi0] [b0] [mkXf 0 0 0 0 0 0 false None]).
Proof. exact @default_pools_wf. Qed.
Print Assumptions C30_default_pools_wf.

(* BUILT-IN FORMATS (finite, regenerated table; vm_compute): every built-in code is stored as a
   built-in id that reads back as the same code; every built-in id resolves to a code that maps
   to an id with the same code (ids 23-36 all read "general": the lookup returns the first match) *)
Theorem C30_builtin_formats :
  forall code, In code DEFAULT_NUM_FMTS ->
  exists i, get_default_num_fmt_id code = Some i /\ get_num_fmt i [] = Ok code.
Proof. exact builtin_formats_roundtrip. Qed.
Print Assumptions C30_builtin_formats.

Theorem C30_builtin_ids :
  forall i, 0 <= i < NBUILTIN ->
  exists code j, get_num_fmt i [] = Ok code /\ get_default_num_fmt_id code = Some j /\ get_num_fmt j [] = Ok code.
Proof. exact builtin_ids_roundtrip. Qed.
Print Assumptions C30_builtin_ids.

(* FRESH IDS: a new custom format gets an id beyond the built-ins that no format of the workbook uses *)
Theorem C30_fresh_num_fmt_id :
  forall nfs, NBUILTIN <= get_new_num_fmt_index nfs /\ ~ In (get_new_num_fmt_index nfs) (map nf_id nfs).
Proof. exact new_num_fmt_index_fresh. Qed.
Print Assumptions C30_fresh_num_fmt_id.

(* the property is FALSE on pools outside wf_styles (each clause is needed) *)
Theorem C30_refuted_shadowed_builtin_id :
  exists st s st' i c, st = zdefault [mkNf 14 [100; 100; 47; 109; 109; 47; 121; 121; 121; 121]] [] /\
    znth DEFAULT_NUM_FMTS 14 = Some c /\ s = zstyle c /\
    zintern st s = Ok (st', i) /\ get_style st' i <> Ok s.
Proof. exact shadowed_builtin_refuted. Qed.
Print Assumptions C30_refuted_shadowed_builtin_id.

Theorem C30_refuted_dangling_id :
  exists st s st' i, st = zdefault [] [mkXf 0 NBUILTIN 0 0 0 0 false None] /\ s = zstyle [122; 122] /\
    zintern st s = Ok (st', i) /\ get_style st' 1 <> get_style st 1.
Proof. exact dangling_id_refuted. Qed.
Print Assumptions C30_refuted_dangling_id.

Theorem C30_refuted_duplicate_id :
  exists st s st' i, st = zdefault [mkNf 60 [97]; mkNf 60 [98]] [] /\ s = zstyle [98] /\
    zintern st s = Ok (st', i) /\ get_style st' i <> Ok s.
Proof. exact duplicate_id_refuted. Qed.
Print Assumptions C30_refuted_duplicate_id.

(* non-vacuity *)
Example C30_nonvacuous :
  let st := zdefault [] [] in
  let a := mkStyle None [48; 46; 48; 48] 0 1 0 false in
  let b := mkStyle (Some 5) [120] 7 1 0 true in
  match @intern_all Z Z Z Z Z.eqb Z.eqb Z.eqb Z.eqb st [a; b; a; zstyle [103; 101; 110; 101; 114; 97; 108]; b] with
  | Ok (st', is) =>
      is = [1; 2; 1; 0; 2] /\ st_num_fmts st' = [mkNf NBUILTIN [120]] /\ st_fonts st' = [0; 1] /\
      st_fills st' = [0; 0; 7] /\ get_style st' 2 = Ok b
  | _ => False
  end.
Proof. exact history_example. Qed.
