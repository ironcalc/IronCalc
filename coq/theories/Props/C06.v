(* Props/C06.v — Computed values match reference spreadsheet semantics (core language).
   The rules as readable facts about the model, for every NumOps instance; the model itself
   is tied to the implementation by the bounded-exhaustive differential check.  Statements only. *)
From IronCalc Require Import Base.Prelude Eval.NumOps Eval.Value Eval.Coerce Eval.Ops Eval.Funs
  Eval.Eval Eval.OpsProofs.

Section C06.
Context {num : Type} (N : NumOps num) (env : cref -> value num) (a : cref).
Notation ev := (eval N env a).

(* the left operand's error wins in every binary operator *)
Theorem C06_left_error_wins : forall l r e, ev l = VErr e ->
  (forall o, ev (EBin o l r) = VErr e) /\ ev (EConcat l r) = VErr e /\ (forall k, ev (ECmp k l r) = VErr e).
Proof. exact (left_error_wins N env a). Qed.

Theorem C06_right_error_after_number : forall o l r x e, ev l = VNum x -> ev r = VErr e -> ev (EBin o l r) = VErr e.
Proof. exact (right_error_after_left_number N env a). Qed.

(* Empty is 0, "" or FALSE by context; TRUE is 1 *)
Theorem C06_empty_by_context :
  cast_to_number N VEmptyCell = ROk (nzero N) /\ cast_to_string N VEmptyCell = ROk [] /\ cast_to_bool N VEmptyCell = ROk false.
Proof. exact (empty_by_context N). Qed.
Theorem C06_true_is_one : cast_to_number N (VBool true) = ROk (none_ N) /\ cast_to_number N (VBool false) = ROk (nzero N).
Proof. exact (bool_as_number N). Qed.

(* a text used as a logical is compared AFTER lowercasing: every case variant of "true"/"false" counts, nothing else does *)
Theorem C06_text_as_bool_case_insensitive : forall s,
  (str_lower N s = t_true -> cast_to_bool N (VStr s) = ROk true) /\
  (str_lower N s = t_false -> cast_to_bool N (VStr s) = ROk false) /\
  (str_lower N s <> t_true -> str_lower N s <> t_false -> cast_to_bool N (VStr s) = RErr EVALUE).
Proof. exact (text_as_bool_case_insensitive N). Qed.

(* text operands of arithmetic go through of_text, else #VALUE! *)
Theorem C06_text_operand : forall o l r s, ev l = VStr s ->
  (nof_text N s = None -> ev (EBin o l r) = VErr EVALUE) /\
  (forall x y, nof_text N s = Some x -> ev r = VNum y -> ev (EBin o l r) = res_value (apply_op N o x y)).
Proof. exact (text_operand N env a). Qed.

Theorem C06_arithmetic_on_numbers : forall o l r x y, ev l = VNum x -> ev r = VNum y -> ev (EBin o l r) = res_value (apply_op N o x y).
Proof. exact (arith_numbers N env a). Qed.
Theorem C06_division_by_zero : forall l r x y, ev l = VNum x -> ev r = VNum y -> nis_zero N y = true -> ev (EBin ODiv l r) = VErr EDIV.
Proof. exact (division_by_zero N env a). Qed.

(* each operator returns a value of a fixed class (or an error, or an array of such) *)
Theorem C06_result_classes : forall l r,
  (forall o, is_num_err_arr (ev (EBin o l r))) /\ is_str_err_arr (ev (EConcat l r)) /\ (forall k, is_bool_err_arr (ev (ECmp k l r))).
Proof. exact (result_classes N env a). Qed.

(* IF and IFERROR are lazy *)
Theorem C06_if_lazy : forall c t e,
  (ev c = VBool true -> ev (EFun FIf [c; t; e]) = ev t) /\ (ev c = VBool false -> ev (EFun FIf [c; t; e]) = ev e).
Proof. exact (if_lazy N env a). Qed.
Theorem C06_if_lazy_no_read : forall S (rd : cref -> M (S:=S) (value num)) c t e s s1,
  eval_st N rd a c s = (VBool true, s1) -> eval_st N rd a (EFun FIf [c; t; e]) s = eval_st N rd a t s1.
Proof. exact (@if_true_lazy_stateful num N a). Qed.
Theorem C06_iferror : forall x fb,
  (forall e, ev x = VErr e -> ev (EFun FIferror [x; fb]) = ev fb) /\
  (forall n, ev x = VNum n -> ev (EFun FIferror [x; fb]) = VNum n).
Proof. exact (fun x fb => conj (iferror_replaces_error N env a x fb)
                 (fun n H => iferror_passes_value N env a x fb (VNum n) H I)). Qed.

(* aggregates skip text and booleans IN RANGES but coerce DIRECT arguments *)
Theorem C06_aggregates_ranges_vs_direct : forall acc0 s b v2,
  agg_cell N FSum acc0 (VStr s) = Continue acc0 /\ agg_cell N FSum acc0 (VBool b) = Continue acc0 /\
  agg_direct N FSum false acc0 (VBool b) v2 = Continue (set_num acc0 (nadd N (a_num acc0) (num_of_bool N b))) /\
  (nof_text N s = None -> agg_direct N FSum false acc0 (VStr s) v2 = Stop (VErr EVALUE)) /\
  agg_cell N FCount acc0 (VBool b) = Continue acc0 /\ agg_direct N FCount false acc0 (VBool b) v2 = Continue (inc_cnt acc0) /\
  agg_cell N FAverage acc0 (VBool b) = Continue acc0 /\ agg_direct N FAverage false acc0 (VBool b) v2 = Continue (avg_add N acc0 (num_of_bool N b)).
Proof. exact (aggregates_ranges_vs_direct N). Qed.

(* where the code departs from that rule (finding F34): MIN and MAX ignore direct text/booleans *)
Theorem C06_refuted_minmax_coerce_direct : forall acc0 s b v2,
  agg_direct N FMin false acc0 (VStr s) v2 = Continue acc0 /\ agg_direct N FMin false acc0 (VBool b) v2 = Continue acc0 /\
  agg_direct N FMax false acc0 (VStr s) v2 = Continue acc0 /\ agg_direct N FMax false acc0 (VBool b) v2 = Continue acc0.
Proof. exact (minmax_ignore_direct_text_and_bool N). Qed.

(* comparison: class order Number < Text < Boolean, case-insensitive text, empty by the other side *)
Theorem C06_class_order : forall x s b,
  compare_values N (VNum x) (VStr s) = Lt /\ compare_values N (VStr s) (VBool b) = Lt /\
  compare_values N (VNum x) (VBool b) = Lt /\ compare_values N (VStr s) (VNum x) = Gt /\
  compare_values N (VBool b) (VStr s) = Gt /\ compare_values N (VBool b) (VNum x) = Gt.
Proof. exact (class_order N). Qed.
Theorem C06_text_case_insensitive : forall s t, str_upper N s = str_upper N t -> compare_values N (VStr s) (VStr t) = Eq.
Proof. exact (text_comparison_ignores_case N). Qed.
Theorem C06_empty_compares_as_other_side : forall x s b,
  compare_values N VEmptyCell (VNum x) = compare_values N (VNum (nzero N)) (VNum x) /\
  compare_values N VEmptyCell (VStr s) = compare_values N (VStr []) (VStr s) /\
  compare_values N VEmptyCell (VBool b) = compare_values N (VBool false) (VBool b).
Proof. exact (empty_compares_as_other_side N). Qed.

(* comparison is a total pre-order, given that the 15-digit comparison of numbers is one *)
Theorem C06_comparison_total_preorder :
  (forall x, ncmp N x x = Eq) -> (forall x y, ncmp N y x = CompOpp (ncmp N x y)) ->
  (forall x y z, ncmp N x y <> Gt -> ncmp N y z <> Gt -> ncmp N x z <> Gt) ->
  (forall u, plain_value u -> compare_values N u u = Eq) /\
  (forall u v, plain_value u -> plain_value v -> vle N u v \/ vle N v u) /\
  (forall u v w, plain_value u -> plain_value v -> plain_value w -> vle N u v -> vle N v w -> vle N u w).
Proof. exact (fun H1 H2 H3 => conj (compare_refl N H1) (conj (compare_total N H2) (compare_trans N H3))). Qed.
End C06.
Print Assumptions C06_left_error_wins.
Print Assumptions C06_right_error_after_number.
Print Assumptions C06_empty_by_context.
Print Assumptions C06_true_is_one.
Print Assumptions C06_text_as_bool_case_insensitive.
Print Assumptions C06_text_operand.
Print Assumptions C06_arithmetic_on_numbers.
Print Assumptions C06_division_by_zero.
Print Assumptions C06_result_classes.
Print Assumptions C06_if_lazy.
Print Assumptions C06_if_lazy_no_read.
Print Assumptions C06_iferror.
Print Assumptions C06_aggregates_ranges_vs_direct.
Print Assumptions C06_refuted_minmax_coerce_direct.
Print Assumptions C06_class_order.
Print Assumptions C06_text_case_insensitive.
Print Assumptions C06_empty_compares_as_other_side.
Print Assumptions C06_comparison_total_preorder.

(* non-vacuity of the pre-order hypotheses: the exact integers satisfy them *)
Example C06_preorder_hypotheses_satisfiable :
  (forall x, ncmp ZOps x x = Eq) /\ (forall x y, ncmp ZOps y x = CompOpp (ncmp ZOps x y)) /\
  (forall x y z, ncmp ZOps x y <> Gt -> ncmp ZOps y z <> Gt -> ncmp ZOps x z <> Gt).
Proof. exact (conj Z.compare_refl (conj (fun x y => Z.compare_antisym x y)
  (fun x y z H1 H2 => proj1 (Z.compare_le_iff x z) (Z.le_trans x y z (proj2 (Z.compare_le_iff x y) H1) (proj2 (Z.compare_le_iff y z) H2))))). Qed.

(* all 16 spellings of "true" and all 32 of "false" (ASCII case mapping) cast to TRUE / FALSE; " TRUE" does not *)
Example C06_all_case_variants_of_true_false :
  forallb (fun v => match cast_to_bool ZOps (VStr v) with ROk true => true | _ => false end) (case_variants t_true) = true /\
  forallb (fun v => match cast_to_bool ZOps (VStr v) with ROk false => true | _ => false end) (case_variants t_false) = true /\
  length (case_variants t_true) = 16%nat /\ length (case_variants t_false) = 32%nat /\
  cast_to_bool ZOps (VStr [32; 84; 82; 85; 69]) = RErr EVALUE.
Proof. exact all_case_variants_of_true_false. Qed.
