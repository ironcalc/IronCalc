(* Props/C15.v — Moving rows or columns is a pure permutation.
   Statements only; proofs are [exact] into Syntax/DisplaceProofs.v or a line or two that
   instantiate a more general lemma of it. Scope: the permutation
   (single line, the code's loop, the block), stored references under single and block moves,
   ranges inside one region, undo, and the hidden-line delta of UserModel. Cell contents
   (re-typing) and column descriptors are decided on the implementation (notes/C15.md). *)
From IronCalc Require Import Base.Prelude Base.Dec Codec.Column Codec.RefA1
  Syntax.Displace Syntax.DisplaceProofs.

(* one line: a bijection whose inverse is the opposite move, staying inside [1, last] *)
Theorem C15_single_move_inverse :
  forall i d x, single_move (i + d) (- d) (single_move i d x) = x.
Proof. exact single_move_inverse. Qed.
Print Assumptions C15_single_move_inverse.

Theorem C15_single_move_inverse_right :
  forall i d y, single_move i d (single_move (i + d) (- d) y) = y.
Proof. exact single_move_inverse'. Qed.
Print Assumptions C15_single_move_inverse_right.

Theorem C15_single_move_range :
  forall last i d x,
  1 <= i <= last -> 1 <= i + d <= last -> 1 <= x <= last -> 1 <= single_move i d x <= last.
Proof. exact single_move_range. Qed.
Print Assumptions C15_single_move_range.

(* the loop of move_rows_action / move_columns_action (last line first when moving down,
   first line first when moving up) IS the block permutation, for every block size *)
Theorem C15_block_is_iterated :
  forall i n d x, iterate_moves i n d x = block_move i (Z.of_nat n) d x.
Proof. exact iterate_is_block. Qed.
Print Assumptions C15_block_is_iterated.

(* ... and the order matters *)
Theorem C15_other_loop_order_is_wrong :
  iter_first_first 1 2 1 1 <> block_move 1 2 1 1.
Proof. exact wrong_order_is_not_block. Qed.
Print Assumptions C15_other_loop_order_is_wrong.

(* the block move: what it does to each region, that it stays on the sheet, and its inverse
   (the move undo applies) *)
Theorem C15_block_move_cases :
  forall i n d x, 0 <= n ->
  (i <= x < i + n -> block_move i n d x = x + d) /\
  (0 < d -> i + n <= x < i + n + d -> block_move i n d x = x - n) /\
  (d < 0 -> i + d <= x < i -> block_move i n d x = x + n) /\
  (x < i -> x < i + d -> block_move i n d x = x) /\
  (i + n <= x -> i + n + d <= x -> block_move i n d x = x).
Proof. exact block_move_cases. Qed.
Print Assumptions C15_block_move_cases.

Theorem C15_block_move_range :
  forall last i n d x,
  0 < n -> 1 <= i -> i + n - 1 <= last -> 1 <= i + d -> i + n - 1 + d <= last ->
  1 <= x <= last -> 1 <= block_move i n d x <= last.
Proof. exact block_move_range. Qed.
Print Assumptions C15_block_move_range.

Theorem C15_undo :
  forall i n d x, 0 <= n -> block_move (i + d) n (- d) (block_move i n d x) = x.
Proof. exact block_move_inverse. Qed.
Print Assumptions C15_undo.

Theorem C15_block_move_injective :
  forall i n d x y, 0 <= n -> block_move i n d x = block_move i n d y -> x = y.
Proof. exact block_move_injective. Qed.
Print Assumptions C15_block_move_injective.

(* references to single cells: through the code's sequence of RowMove/ColumnMove rewrites the
   absolute target goes where the cell goes *)
Theorem C15_refs_single_cells_rows :
  forall s i n d row col,
  displace_pos_seq (move_disps true s i n d) s (row, col) = Some (block_move i (Z.of_nat n) d row, col).
Proof. exact (move_refs_follow true). Qed.
Print Assumptions C15_refs_single_cells_rows.

Theorem C15_refs_single_cells_columns :
  forall s i n d row col,
  displace_pos_seq (move_disps false s i n d) s (row, col) = Some (row, block_move i (Z.of_nat n) d col).
Proof. exact (move_refs_follow false). Qed.
Print Assumptions C15_refs_single_cells_columns.

(* the same at the level of stored references, every step re-typing the formula in the moved
   cell, printing it displaced and parsing it again: anchor and target both end at block_move *)
Theorem C15_stored_refs_follow_block_rows :
  forall s i n d same q a row col,
  1 <= i -> i + Z.of_nat n - 1 <= LAST_ROW -> 1 <= i + d -> i + Z.of_nat n - 1 + d <= LAST_ROW ->
  a_sheet a = s -> resolve q a = (row, col) -> 1 <= row <= LAST_ROW -> 1 <= col <= LAST_COLUMN ->
  exists q' a',
    apply_disp_seq (move_disps true s i n d) same q a = RwRef q' a' /\
    follows q' a a' (block_move i (Z.of_nat n) d row, col) /\
    q' = (if same then (block_move i (Z.of_nat n) d (fst q), snd q) else q).
Proof. exact move_rows_rewrite. Qed.
Print Assumptions C15_stored_refs_follow_block_rows.

Theorem C15_stored_ref_single_row_move :
  forall s i d same q q' a row col,
  1 <= i <= LAST_ROW -> 1 <= i + d <= LAST_ROW ->
  a_sheet a = s -> resolve q a = (row, col) ->
  1 <= row <= LAST_ROW -> 1 <= col <= LAST_COLUMN ->
  anchor_map (DRowMove s i d) same q = Some q' ->
  exists a', apply_disp_full (DRowMove s i d) same q a = RwRef q' a' /\
             follows q' a a' (single_move i d row, col).
Proof.
  intros s i d same q q' a row col Hi Hd Hs Hres Hrow Hcol Hq. pose proof (single_move_range LAST_ROW i d row Hi Hd Hrow).
  apply (rewrite_follows _ _ _ _ _ row col); try assumption; [apply move_row_ref_follows; (assumption || lia)|lia].
Qed.
Print Assumptions C15_stored_ref_single_row_move.

Theorem C15_stored_ref_single_column_move :
  forall s i d same q q' a row col,
  1 <= i <= LAST_COLUMN -> 1 <= i + d <= LAST_COLUMN ->
  a_sheet a = s -> resolve q a = (row, col) ->
  1 <= row <= LAST_ROW -> 1 <= col <= LAST_COLUMN ->
  anchor_map (DColMove s i d) same q = Some q' ->
  exists a', apply_disp_full (DColMove s i d) same q a = RwRef q' a' /\
             follows q' a a' (row, single_move i d col).
Proof.
  intros s i d same q q' a row col Hi Hd Hs Hres Hrow Hcol Hq. pose proof (single_move_range LAST_COLUMN i d col Hi Hd Hcol).
  apply (rewrite_follows _ _ _ _ _ row col); try assumption; [apply move_col_ref_follows; (assumption || lia)|lia].
Qed.
Print Assumptions C15_stored_ref_single_column_move.

(* a move and the opposite move give back every stored reference *)
Theorem C15_move_then_back_rows :
  forall s i d same q a,
  1 <= i <= LAST_ROW -> 1 <= i + d <= LAST_ROW ->
  1 <= fst (resolve q a) <= LAST_ROW -> 1 <= snd (resolve q a) <= LAST_COLUMN ->
  then_disp (DRowMove s i d) (DRowMove s (i + d) (- d)) same q a = Some (q, a).
Proof. exact move_row_then_back. Qed.
Print Assumptions C15_move_then_back_rows.

Theorem C15_move_then_back_columns :
  forall s i d same q a,
  1 <= i <= LAST_COLUMN -> 1 <= i + d <= LAST_COLUMN ->
  1 <= fst (resolve q a) <= LAST_ROW -> 1 <= snd (resolve q a) <= LAST_COLUMN ->
  then_disp (DColMove s i d) (DColMove s (i + d) (- d)) same q a = Some (q, a).
Proof. exact move_col_then_back. Qed.
Print Assumptions C15_move_then_back_columns.

(* ranges wholly inside the block, the shifted band, or outside both are translated rigidly:
   every cell of the range keeps its place inside the moved range *)
Theorem C15_ranges_in_one_region :
  forall i n d r1 r2 x,
  0 <= n -> r1 <= r2 -> same_region i n d r1 r2 -> r1 <= x <= r2 ->
  block_move i n d x - block_move i n d r1 = x - r1 /\
  block_move i n d r1 <= block_move i n d x <= block_move i n d r2.
Proof. exact block_move_range_rigid. Qed.
Print Assumptions C15_ranges_in_one_region.

Theorem C15_straddling_range_stretches :
  block_move 3 1 2 3 - block_move 3 1 2 2 <> 3 - 2.
Proof. exact straddling_range_stretches. Qed.
Print Assumptions C15_straddling_range_stretches.

(* UserModel's hidden-line adjustment of the delta *)
Theorem C15_hidden_delta_none :
  forall hidden last i n d,
  (forall x, hidden x = false) -> 0 < n -> d <> 0 -> 1 <= i -> i + n - 1 <= last -> 1 <= i + d ->
  i + n + d <= last ->
  hidden_adjust hidden last i n d = Ok d.
Proof. exact hidden_adjust_none. Qed.
Print Assumptions C15_hidden_delta_none.

Theorem C15_hidden_delta_bounds :
  forall hidden last i n d d',
  0 < n -> hidden_adjust hidden last i n d = Ok d' ->
  (0 < d -> d <= d' <= 2 * d + 1) /\ (d < 0 -> 2 * d <= d' <= d).
Proof. exact hidden_adjust_sign. Qed.
Print Assumptions C15_hidden_delta_bounds.

(* the inclusive loop bound, characterised: moving down the code looks one line past the
   landing zone; the delta is the exclusive-bound delta plus one when that line is hidden,
   and an error when that line does not exist *)
Theorem C15_hidden_delta_inclusive_bound :
  forall hidden last i n d,
  0 < d ->
  hidden_adjust hidden last i n d =
  match hidden_adjust_excl hidden last i n d with
  | Ok e => if (1 <=? i + n + d) && (i + n + d <=? last)
            then Ok (e + (if hidden (i + n + d) then 1 else 0)) else Err
  | Err => Err
  | Panic => Panic
  end.
Proof. exact hidden_adjust_inclusive. Qed.
Print Assumptions C15_hidden_delta_inclusive_bound.

Theorem C15_hidden_delta_up_is_exact :
  forall hidden last i n d,
  d < 0 -> hidden_adjust hidden last i n d = hidden_adjust_excl hidden last i n d.
Proof. exact hidden_adjust_up_exact. Qed.
Print Assumptions C15_hidden_delta_up_is_exact.

(* the off-by-one is a finding at the edge of the sheet: every downward move that ends exactly
   on the last line is valid for Model and refused by UserModel, whatever is hidden *)
Theorem C15_move_to_last_line_refuted :
  forall hidden last i n d,
  0 < d -> 0 < n -> 1 <= i -> i + n - 1 + d = last ->
  move_valid last i n d = true /\ hidden_adjust hidden last i n d = Err.
Proof. exact hidden_adjust_rejects_move_to_last_line. Qed.
Print Assumptions C15_move_to_last_line_refuted.

(* ... and harmless elsewhere: jumping over one more (hidden) line changes the relative order
   of no two other lines *)
Theorem C15_extra_hidden_line_is_invisible :
  forall i n d x y,
  0 < n -> 0 < d -> x <> i + n + d -> y <> i + n + d ->
  (block_move i n d x < block_move i n d y <-> block_move i n (d + 1) x < block_move i n (d + 1) y).
Proof. exact extra_hidden_line_is_invisible. Qed.
Print Assumptions C15_extra_hidden_line_is_invisible.

(* non-vacuity *)
Example C15_nonvacuous :
  map (iterate_moves 2 2 2) [1; 2; 3; 4; 5; 6] = [1; 4; 5; 2; 3; 6] /\
  map (block_move 2 2 2) [1; 2; 3; 4; 5; 6] = [1; 4; 5; 2; 3; 6].
Proof. exact block_move_example. Qed.

Example C15_hidden_nonvacuous :
  hidden_adjust (fun x => x =? 5) LAST_ROW 3 1 1 = Ok 2 /\
  hidden_adjust_excl (fun x => x =? 5) LAST_ROW 3 1 1 = Ok 1 /\
  hidden_adjust (fun _ => false) LAST_ROW (LAST_ROW - 1) 1 1 = Err /\
  move_valid LAST_ROW (LAST_ROW - 1) 1 1 = true.
Proof. exact hidden_adjust_example. Qed.
