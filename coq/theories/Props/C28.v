(* Props/C28.v — The selection always points at an existing sheet and cell.
   Statements only; every proof is an instance of a lemma of UserModel/SelectionProofs.v.
   [sel_ok s]: the selected sheet exists, its selected cell and both corners of its selected
   range are on the grid, and the cell lies inside the hull of the range.
   [inv s]: the same for EVERY sheet's view (any sheet can become the selected one) + the sheet
   entries of the undo/redo stacks are well formed.
   The property as stated is FALSE on the current code (three refutations, each a history replayed
   on the implementation by harness/c28: on_area_selecting twice, on_paste_styles); it holds along
   every history that avoids the decidable classes [bad] of these two methods (Selection.v), from
   any workbook.  delete_sheet, redo of DeleteSheet, on_page_down and on_page_up, refuted on the
   earlier tree, are repaired in /repo (422225e, ccc73d8, 0ee396a) and now proved unconditionally. *)
From IronCalc Require Import Base.Prelude Base.Dec UserModel.Selection UserModel.SelectionProofs.

(* the initial workbook satisfies the property *)
Theorem C28_init : inv init /\ sel_ok init.
Proof. exact (conj init_inv (inv_sel_ok init init_inv)). Qed.
Print Assumptions C28_init.

(* one step: every operation of ui.rs, every sheet / line operation of common.rs, undo and redo
   preserve the invariant, except on_area_selecting / on_paste_styles inside their classes *)
Theorem C28_preservation : forall s o, inv s -> bad s o = false -> inv (step s o).
Proof. exact step_inv. Qed.
Print Assumptions C28_preservation.

(* the statement of the property … *)
Definition C28_statement : Prop := forall ops, sel_ok (run init ops).

(* … is refuted by the faithful model *)
Theorem C28_refuted : ~ C28_statement.
Proof. exact (fun H => refuted_area_offgrid (H w_area_offgrid)). Qed.
Print Assumptions C28_refuted.

(* F22c: on_area_selecting stores any target *)
Theorem C28_refuted_area_selecting : ~ sel_ok (run init [OAreaSel 0 (-5)]).
Proof. exact refuted_area_offgrid. Qed.
Print Assumptions C28_refuted_area_selecting.

(* new: on_area_selecting anchors the range at its old start corner, not at the selected cell *)
Theorem C28_refuted_area_selecting_anchor :
  ~ sel_ok (run init [OSetCell 5 5; OSetRange 1 1 5 5; OAreaSel 2 2]).
Proof. exact refuted_area_anchor. Qed.
Print Assumptions C28_refuted_area_selecting_anchor.

(* new: on_paste_styles rebuilds a reversed range from its start corner *)
Theorem C28_refuted_paste_styles : ~ sel_ok (run init [OSetRange 5 5 1 1; OPaste 1 1]).
Proof. exact refuted_paste. Qed.
Print Assumptions C28_refuted_paste_styles.

(* every witness avoids all classes up to its last step and meets one class there *)
Theorem C28_witnesses_tight :
  forallb only_last_bad [w_area_offgrid; w_area_anchor; w_paste] = true.
Proof. exact witnesses_tight. Qed.
Print Assumptions C28_witnesses_tight.

(* the partial property: along every history that avoids the classes, the selection is valid
   after every prefix (the statement for [ops] covers all its prefixes, [avoids] being
   prefix-closed) — on the selected sheet and on every other sheet *)
Theorem C28_partial :
  forall ops, avoids init ops = true -> sel_ok (run init ops) /\ all_ok_b (run init ops) = true.
Proof. exact C28_partial_thm. Qed.
Print Assumptions C28_partial.

(* … from any workbook: any number of sheets, any hidden rows/columns, sizes and cell contents *)
Theorem C28_partial_any_workbook :
  forall l ops, l <> [] -> Forall sheet_ok l -> avoids (mk_state l) ops = true -> sel_ok (run (mk_state l) ops).
Proof. exact C28_partial_any_workbook. Qed.
Print Assumptions C28_partial_any_workbook.

(* non-vacuity of the implication: a 44-step history through every kind of operation *)
Example C28_partial_nonvacuous : avoids init nv_history = true /\ length nv_history = 44%nat.
Proof. exact nv_history_avoids. Qed.
Print Assumptions C28_partial_nonvacuous.

(* the validated setters never break the invariant (no class needed) *)
Theorem C28_setters : forall s, inv s ->
  (forall i, inv (step s (OSetSheet i))) /\
  (forall r c, inv (step s (OSetCell r c))) /\
  (forall r1 c1 r2 c2, inv (step s (OSetRange r1 c1 r2 c2))) /\
  (forall t l, inv (step s (OTopLeft t l))).
Proof. intros s Hi. repeat split; intros; apply (step_inv s _ Hi); reflexivity. Qed.
Print Assumptions C28_setters.

(* arrow keys, shift+arrow, ctrl+arrow, page down / up: whatever the hidden rows/columns, sizes,
   cells and window *)
Theorem C28_navigation : forall s, inv s ->
  (forall d, inv (step s (OArrow d))) /\
  (forall k, inv (step s (OExpand k))) /\
  (forall d, inv (step s (ONavEdge d))) /\
  inv (step s OPageDown) /\ inv (step s OPageUp).
Proof. intros s Hi. repeat split; intros; apply (step_inv s _ Hi); reflexivity. Qed.
Print Assumptions C28_navigation.

(* every sheet operation (delete at any index relative to the selected one included), undo and
   redo of anything, hiding lines *)
Theorem C28_sheet_operations : forall s, inv s ->
  inv (step s ONewSheet) /\ (forall i, inv (step s (ODuplicate i))) /\ (forall i, inv (step s (ODelete i))) /\
  (forall i j, inv (step s (OMove i j))) /\
  (forall i, inv (step s (OHide i))) /\ (forall i, inv (step s (OUnhide i))) /\
  (forall i n, inv (step s (ORename i n))) /\ inv (step s OUndo) /\ inv (step s ORedo) /\
  (forall sh a b h, inv (step s (ORowsHidden sh a b h))) /\ (forall sh a b h, inv (step s (OColsHidden sh a b h))).
Proof. intros s Hi. repeat split; intros; apply (step_inv s _ Hi); reflexivity. Qed.
Print Assumptions C28_sheet_operations.

(* the four histories that refuted the property before the repairs now satisfy it *)
Theorem C28_repaired_witnesses :
  forallb (fun ops => avoids init ops && sel_ok_b (run init ops)) [w_delete; w_redo; w_page_down; w_page_up] = true.
Proof. exact repaired_witnesses. Qed.
Print Assumptions C28_repaired_witnesses.

(* the loops over hidden lines never run out of fuel *)
Theorem C28_scan_fuel_up : forall hid limit c,
  scan hid (fun x => x <=? limit) 1 (fuel_to c limit) c <> LFuel /\
  scan hid (fun x => x <? limit) 1 (fuel_to c limit) c <> LFuel.
Proof. exact scan_fuel_up. Qed.
Print Assumptions C28_scan_fuel_up.
Theorem C28_scan_fuel_down : forall hid c,
  scan hid (fun x => 1 <=? x) (-1) (fuel_down c) c <> LFuel /\
  scan hid (fun x => 1 <? x) (-1) (fuel_down c) c <> LFuel.
Proof. exact scan_fuel_down. Qed.
Print Assumptions C28_scan_fuel_down.
