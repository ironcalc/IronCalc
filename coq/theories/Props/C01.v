(* Props/C01.v — Undo restores the exact state before the undone operation.
   The machine-level theorems hold for EVERY type of states and diffs; the per-operation
   content is the hypothesis [faithful] (an operation's recorded diff list, applied backwards
   to the state after it, gives the state before it), which the correspondence checks on the
   implementation for every generated operation. *)
From Coq Require Import List.
Import ListNotations.
From IronCalc Require Import UserModel.History UserModel.HistoryProofs.

(* undoing the operation just performed gives back exactly the state it started from *)
Theorem C01_undo_restores :
  forall (St Df : Type) (apply unapply : Df -> St -> St) (m : machine St Df) (sp : spec St) s' dl,
  R St Df apply unapply m sp -> faithful St Df apply unapply (st St Df m) dl s' ->
  st St Df (step St Df apply unapply (step St Df apply unapply m (Do s' dl)) Undo) = st St Df m.
Proof. exact (fun St Df a u m _ s' dl _ => undo_restores St Df a u m s' dl). Qed.
Print Assumptions C01_undo_restores.

(* repeated undo walks back through the whole history: after any valid interleaving the
   workbook is the state under the cursor of the list of visited states *)
Theorem C01_walk_back :
  forall (St Df : Type) (apply unapply : Df -> St -> St) s0 es,
  valid St Df apply unapply (init St Df s0) es ->
  let m := run St Df apply unapply (init St Df s0) es in
  let sp := spec_run St Df (spec_init St s0) es in
  st St Df m = nth (cursor St sp) (log St sp) s0 /\
  (can_undo St Df m = true <-> 0 < cursor St sp) /\
  (can_redo St Df m = true <-> cursor St sp + 1 < length (log St sp)).
Proof. exact cursor_semantics. Qed.
Print Assumptions C01_walk_back.

(* "Repeated undo walks back through the whole history the same way": after ANY valid history
   (with undos and redos inside), k further undos leave the workbook in the state k places
   before the cursor of the log, and undoing [cursor] times restores the initial workbook. *)
From IronCalc Require Import UserModel.WalkBack.

Theorem C01_walk_back_k :
  forall (St Df : Type) (apply unapply : Df -> St -> St) s0 es k,
  valid St Df apply unapply (init St Df s0) es ->
  let sp := spec_run St Df (spec_init St s0) es in
  st St Df (run St Df apply unapply (run St Df apply unapply (init St Df s0) es) (repeat Undo k))
  = nth (cursor St sp - k) (log St sp) s0.
Proof. exact walk_back_k. Qed.
Print Assumptions C01_walk_back_k.

Theorem C01_walk_back_to_the_start :
  forall (St Df : Type) (apply unapply : Df -> St -> St) s0 es,
  valid St Df apply unapply (init St Df s0) es ->
  let sp := spec_run St Df (spec_init St s0) es in
  st St Df (run St Df apply unapply (run St Df apply unapply (init St Df s0) es) (repeat Undo (cursor St sp))) = s0.
Proof. exact walk_back_all. Qed.
Print Assumptions C01_walk_back_to_the_start.
