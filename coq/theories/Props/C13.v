(* Props/C13.v — Deleting rows or columns shifts the rest and breaks only what was deleted.
   Statements only; proofs are [exact] into Syntax/DisplaceProofs.v or a line or two that
   instantiate a more general lemma of it. Scope as in Props/C12.v:
   the reference, range and #REF! clauses about the faithful model; content and values are
   decided on the implementation by the oracle (notes/C13.md). *)
From IronCalc Require Import Base.Prelude Base.Dec Codec.Column Codec.RefA1
  Syntax.Displace Syntax.DisplaceProofs.

Theorem C13_references_follow_cells :
  forall d s p, disp_sheet d = Some s -> displace_pos d false false s p = cell_map d p.
Proof. exact displace_pos_is_cell_map. Qed.
Print Assumptions C13_references_follow_cells.

(* rows, full statement: a reference (any flags, any anchor, formula on the edited sheet or
   not) to a cell inside the deleted band becomes "#REF!"; to a cell outside it, it follows the
   cell to cell_map, read from the moved anchor *)
Theorem C13_refs_rows :
  forall s r k same q q' a row col,
  0 < k -> 1 <= r -> a_sheet a = s -> resolve q a = (row, col) ->
  1 <= row <= LAST_ROW -> 1 <= col <= LAST_COLUMN ->
  anchor_map (DRow s r (- k)) same q = Some q' ->
  (r <= row < r + k ->
     cell_map (DRow s r (- k)) (row, col) = None /\
     apply_disp_full (DRow s r (- k)) same q a = RwRefError) /\
  (row < r \/ r + k <= row ->
     exists t, cell_map (DRow s r (- k)) (row, col) = Some t /\
     t = ((if row <? r then row else row - k), col) /\
     exists a', apply_disp_full (DRow s r (- k)) same q a = RwRef q' a' /\ follows q' a a' t).
Proof. exact del_row_rewrite. Qed.
Print Assumptions C13_refs_rows.

Theorem C13_refs_columns :
  forall s c k same q q' a row col,
  0 < k -> 1 <= c -> a_sheet a = s -> resolve q a = (row, col) ->
  1 <= row <= LAST_ROW -> 1 <= col <= LAST_COLUMN ->
  anchor_map (DCol s c (- k)) same q = Some q' ->
  (c <= col < c + k ->
     cell_map (DCol s c (- k)) (row, col) = None /\
     apply_disp_full (DCol s c (- k)) same q a = RwRefError) /\
  (col < c \/ c + k <= col ->
     exists t, cell_map (DCol s c (- k)) (row, col) = Some t /\
     t = (row, (if col <? c then col else col - k)) /\
     exists a', apply_disp_full (DCol s c (- k)) same q a = RwRef q' a' /\ follows q' a a' t).
Proof. exact del_col_rewrite. Qed.
Print Assumptions C13_refs_columns.

(* the printed form, corner by corner *)
Theorem C13_printed_reference_rows :
  forall s r k q a fc row col,
  0 < k -> 1 <= r -> a_sheet a = s -> resolve q a = (row, col) -> 1 <= row -> 1 <= col <= LAST_COLUMN ->
  (row < r ->
     cell_map (DRow s r (- k)) (row, col) = Some (row, col) /\
     displace (DRow s r (- k)) false fc q a = Some (mkp row col a)) /\
  (r <= row < r + k ->
     cell_map (DRow s r (- k)) (row, col) = None /\
     displace (DRow s r (- k)) false fc q a = None) /\
  (r + k <= row ->
     cell_map (DRow s r (- k)) (row, col) = Some (row - k, col) /\
     displace (DRow s r (- k)) false fc q a = Some (mkp (row - k) col a)).
Proof. exact del_row_ref. Qed.
Print Assumptions C13_printed_reference_rows.

Theorem C13_printed_reference_columns :
  forall s c k q a fr row col,
  0 < k -> 1 <= c -> a_sheet a = s -> resolve q a = (row, col) -> 1 <= row -> 1 <= col <= LAST_COLUMN ->
  (col < c ->
     cell_map (DCol s c (- k)) (row, col) = Some (row, col) /\
     displace (DCol s c (- k)) fr false q a = Some (mkp row col a)) /\
  (c <= col < c + k ->
     cell_map (DCol s c (- k)) (row, col) = None /\
     displace (DCol s c (- k)) fr false q a = None) /\
  (c + k <= col ->
     cell_map (DCol s c (- k)) (row, col) = Some (row, col - k) /\
     displace (DCol s c (- k)) fr false q a = Some (mkp row (col - k) a)).
Proof. exact del_col_ref. Qed.
Print Assumptions C13_printed_reference_columns.

(* ranges: each corner on its own — a corner inside the band is "#REF!" (the text is
   "#REF!:A4"), the other corner follows its cell; a range spanning the band shrinks *)
Theorem C13_ranges_rows :
  forall s r k q g r1 c1 r2 c2,
  0 < k -> 1 <= r -> g_sheet g = s -> is_full_row g = false ->
  resolve q (corner1 g) = (r1, c1) -> resolve q (corner2 g) = (r2, c2) ->
  1 <= r1 -> 1 <= r2 -> 1 <= c1 <= LAST_COLUMN -> 1 <= c2 <= LAST_COLUMN ->
  let f := fun x => if x <? r then Some x else if x <? r + k then None else Some (x - k) in
  displace_range (DRow s r (- k)) q g =
    (match f r1 with Some x => Some (mkp x c1 (corner1 g)) | None => None end,
     match f r2 with Some x => Some (mkp x c2 (corner2 g)) | None => None end).
Proof.
  intros s r k q g r1 c1 r2 c2 Hk Hr Hs Hf H1 H2 Hr1 Hr2 Hc1 Hc2 f. subst f. unfold displace_range.
  rewrite Hf, (row_ref s r (- k) q _ _ r1 c1), (row_ref s r (- k) q _ _ r2 c2), !line_map_del by (trivial; lia). reflexivity.
Qed.
Print Assumptions C13_ranges_rows.

Theorem C13_spanning_range_shrinks :
  forall s r k q g r1 c1 r2 c2,
  0 < k -> 1 <= r -> g_sheet g = s -> is_full_row g = false ->
  resolve q (corner1 g) = (r1, c1) -> resolve q (corner2 g) = (r2, c2) ->
  1 <= r1 -> 1 <= c1 <= LAST_COLUMN -> 1 <= c2 <= LAST_COLUMN ->
  r1 < r -> r + k <= r2 ->
  displace_range (DRow s r (- k)) q g =
    (Some (mkp r1 c1 (corner1 g)), Some (mkp (r2 - k) c2 (corner2 g))).
Proof.
  intros s r k q g r1 c1 r2 c2 Hk Hr Hs Hf H1 H2 Hr1 Hc1 Hc2 Ha Hb. unfold displace_range.
  rewrite Hf, (row_ref s r (- k) q _ _ r1 c1), (row_ref s r (- k) q _ _ r2 c2), line_map_del_before, line_map_del_after by (trivial; lia). reflexivity.
Qed.
Print Assumptions C13_spanning_range_shrinks.

(* "=SUM(A3:A6)" in B1, rows 2..3 deleted: the code prints "#REF!:A4" *)
Theorem C13_deleted_corner_text :
  displace_range_text (DRow 0 2 (-2)) (1, 2)
    {| g_sheet := 0; g_row1 := 2; g_col1 := -1; g_abs_row1 := false; g_abs_col1 := false;
       g_row2 := 5; g_col2 := -1; g_abs_row2 := false; g_abs_col2 := false |}
  = [35; 82; 69; 70; 33; 58; 65; 52].
Proof. exact del_corner_text. Qed.
Print Assumptions C13_deleted_corner_text.

Theorem C13_full_row_range_exempt :
  forall s r delta q g c1 c2,
  is_full_row g = true ->
  snd (resolve q (corner1 g)) = c1 -> snd (resolve q (corner2 g)) = c2 ->
  1 <= c1 <= LAST_COLUMN -> 1 <= c2 <= LAST_COLUMN ->
  displace_range (DRow s r delta) q g =
    (Some (mkp 1 c1 (corner1 g)), Some (mkp LAST_ROW c2 (corner2 g))).
Proof. exact full_row_range_exempt. Qed.
Print Assumptions C13_full_row_range_exempt.

Theorem C13_other_sheet_unchanged :
  forall d s' q a fr fc row col,
  disp_sheet d = Some s' -> a_sheet a <> s' -> resolve q a = (row, col) ->
  1 <= row -> 1 <= col <= LAST_COLUMN ->
  displace d fr fc q a = Some (mkp row col a).
Proof. exact other_sheet_ref_unchanged. Qed.
Print Assumptions C13_other_sheet_unchanged.

(* the premise [1 <= r] of the theorems above is what delete_rows / delete_columns validate *)
Theorem C13_accepted_delete_band_on_grid :
  forall last r k, 0 < k -> edit_valid last r (- k) = true -> 1 <= r /\ r + k - 1 <= last.
Proof. intros last r k. rewrite edit_valid_spec. lia. Qed.
Print Assumptions C13_accepted_delete_band_on_grid.

(* non-vacuity: "=B5" in C7, rows 4..5 deleted -> "#REF!"; "=B6" -> "=B4" seen from C5 *)
Example C13_nonvacuous :
  apply_disp_full (DRow 0 4 (-2)) true (7, 3)
    {| a_sheet := 0; a_row := -2; a_col := -1; a_abs_row := false; a_abs_col := false |} = RwRefError /\
  apply_disp_full (DRow 0 4 (-2)) true (7, 3)
    {| a_sheet := 0; a_row := -1; a_col := -1; a_abs_row := false; a_abs_col := false |} =
  RwRef (5, 3) {| a_sheet := 0; a_row := -1; a_col := -1; a_abs_row := false; a_abs_col := false |}.
Proof. exact del_row_rewrite_example. Qed.
