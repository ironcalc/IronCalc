(* Props/C24.v — xlsx export then import preserves the workbook.
   PROVED here (three codecs the round trip is made of):
     (a) the string-escaping codec: escape_xml on export, the XML parser's entity resolution,
         decode_xlsx_escapes on import                                   (C24_escape_...)
     (b) the cell-type codec: which t= / <v> / <f> / cm encoding the writer chooses for every
         Cell x FormulaValue kind and what the reader makes of it        (C24_cell_...)
     (c) formula text, by reduction: the C09 round-trip theorem at the xlsx printer mode with the
         name tables of C23, and the character layer (escaped, never decoded) (C24_formula_...)
   ORACLE ONLY (harness/c24, whole-workbook comparison): styles.xml, theme, sheet properties,
   rows / columns, defined names, links, conditional formats, tables, doc props, the container.
   Statements only; every proof is [exact <lemma>].

   Full statement:  forall s, roundtrip s = Ok s   where
     roundtrip s = decode (xml_unescape (escape s)).
   The faithful model REFUTES it (C24_escape_refuted): a literal `_xHHHH` immediately followed by a
   control character forms a new `_xHHHH_` pattern with the '_' of the escaped control character. *)
From IronCalc Require Import Base.Prelude Codec.XmlEscape Codec.XmlEscapeProofs.
From IronCalc Require Import Codec.RefA1 Syntax.Token Syntax.Ast Syntax.Printer Syntax.Parser Syntax.Shape.
From IronCalc Require Import Xlsx.CellCodec Xlsx.CellCodecProofs Xlsx.FormulaText.
From IronCalc Require Generated.Tables_c23 Codec.Names.

Theorem C24_escape_refuted :
  exists s, forallb text_char_ok s = true /\ roundtrip s <> Ok s.
Proof. exact roundtrip_refuted. Qed.
Print Assumptions C24_escape_refuted.

(* the witness spelled out: "_x0041" U+0001 is written as _x0041_x0001_ and read back as Ax0001_ *)
Theorem C24_escape_witness :
  escape [95; 120; 48; 48; 52; 49; 1] = [95; 120; 48; 48; 52; 49; 95; 120; 48; 48; 48; 49; 95]
  /\ roundtrip [95; 120; 48; 48; 52; 49; 1] = Ok [65; 120; 48; 48; 48; 49; 95]
  /\ forallb text_char_ok [95; 120; 48; 48; 52; 49; 1] = true
  /\ collides [95; 120; 48; 48; 52; 49; 1] = true.
Proof. exact roundtrip_witness. Qed.
Print Assumptions C24_escape_witness.

(* every text (any length, any code points the writer can emit into XML) outside the class
   "a literal _xHHHH with a non-surrogate value followed by a control character" round-trips *)
Theorem C24_escape_partial :
  forall s, forallb text_char_ok s = true -> collides s = false -> roundtrip s = Ok s.
Proof. exact roundtrip_partial. Qed.
Print Assumptions C24_escape_partial.

(* the two layers separately *)
Theorem C24_xml_layer :
  forall s, forallb text_char_ok s = true -> xml_unescape (escape s) = Ok (xesc s).
Proof. exact xml_unescape_escape. Qed.
Print Assumptions C24_xml_layer.

Theorem C24_xlsx_layer :
  forall s, collides s = false -> decode (xesc s) = s.
Proof. exact decode_xesc. Qed.
Print Assumptions C24_xlsx_layer.

(* U+FFFE and U+FFFF are written raw although XML forbids them: the reader rejects the file *)
Theorem C24_escape_noncharacter_rejected :
  roundtrip [65; 65534] = Err /\ roundtrip [65535] = Err.
Proof. exact noncharacter_rejected. Qed.
Print Assumptions C24_escape_noncharacter_rejected.

(* non-vacuity of the partial theorem: look-alikes that ARE handled *)
Example C24_escape_partial_nonvacuous :
  collides [95; 120; 48; 48; 52; 49; 95] = false /\ roundtrip [95; 120; 48; 48; 52; 49; 95] = Ok [95; 120; 48; 48; 52; 49; 95]
  /\ collides [95; 120; 68; 56; 48; 48; 1] = false /\ roundtrip [95; 120; 68; 56; 48; 48; 1] = Ok [95; 120; 68; 56; 48; 48; 1].
Proof. vm_compute. repeat split; reflexivity. Qed.

(* ================= (b) the cell-type codec ================= *)
(* [num] is f64 with its two Rust primitives; their law is an explicit premise (checked by the
   harness on every generated number). [formula] is an opaque payload (see (c)). [here] is the
   "Sheet!A1" text the reader stores as the origin of an error value. [anchor_of c] is the reader's
   position context: Some a for a spill cell (it lies in the range of an array formula written
   before it), None otherwise. *)
Theorem C24_cell_types :
  forall (num : Type) (show_num : num -> text) (read_num : text -> num) (formula : Type) (finite : num -> bool),
  (forall n, finite n = true -> read_num (show_num n) = n) ->
  forall here (c : cell num formula),
  evaluated num formula c = true -> texts_ok num formula c = true -> ids_ok num formula c = true ->
  nums_finite num formula finite c = true ->
  exists x, enc_cell num show_num formula c = Ok x /\
            dec_cell num read_num formula (anchor_of num formula c) here x = canonical num formula here c.
Proof. exact cell_types. Qed.
Print Assumptions C24_cell_types.

(* what [canonical] changes is exactly: a colliding text (F17) and the origin / message of an error
   value (not stored in the file). Otherwise the cell comes back as is: *)
Theorem C24_cell_types_exact :
  forall (num : Type) (show_num : num -> text) (read_num : text -> num) (formula : Type) (finite : num -> bool),
  (forall n, finite n = true -> read_num (show_num n) = n) ->
  forall here (c : cell num formula),
  evaluated num formula c = true -> texts_ok num formula c = true -> ids_ok num formula c = true ->
  nums_finite num formula finite c = true -> exact num formula here c = true ->
  exists x, enc_cell num show_num formula c = Ok x /\
            dec_cell num read_num formula (anchor_of num formula c) here x = c.
Proof. exact cell_types_exact. Qed.
Print Assumptions C24_cell_types_exact.

(* kinds that do not survive *)
Theorem C24_cell_unevaluated_refuted :
  forall (num : Type) (show_num : num -> text) (formula : Type) f s,
  enc_cell num show_num formula (CFormula num formula f s (FUneval num)) = Panic.
Proof. exact unevaluated_panics. Qed.
Print Assumptions C24_cell_unevaluated_refuted.

(* #N/IMPL! is kept (F01 repaired in /repo 4a681a0; it used to come back as #ERROR!) *)
Theorem C24_cell_nimpl_kept :
  forall (num : Type) (show_num : num -> text) (read_num : text -> num) (formula : Type) here s,
  exists x, enc_cell num show_num formula (CErr num formula Names.E_NIMPL s) = Ok x /\
            dec_cell num read_num formula None here x = CErr num formula Names.E_NIMPL s.
Proof. intros. apply (cell_types_at_no_number num show_num read_num formula None); trivial. Qed.
Print Assumptions C24_cell_nimpl_kept.

Theorem C24_cell_error_origin_refuted :
  forall (num : Type) (show_num : num -> text) (read_num : text -> num) (formula : Type) here f s o m,
  exists x, enc_cell num show_num formula (CFormula num formula f s (FErr num Names.E_DIV o m)) = Ok x /\
            dec_cell num read_num formula None here x = CFormula num formula f s (FErr num Names.E_DIV here (Names.display Names.E_DIV)).
Proof. intros. apply (cell_types_at_no_number num show_num read_num formula None); trivial. Qed.
Print Assumptions C24_cell_error_origin_refuted.

(* a spill cell the reader does not find inside an array range comes back as a value cell *)
Theorem C24_cell_orphan_spill_refuted :
  forall (num : Type) (show_num : num -> text) (read_num : text -> num) (formula : Type) (finite : num -> bool),
  (forall n, finite n = true -> read_num (show_num n) = n) ->
  forall here s a n, finite n = true ->
  exists x, enc_cell num show_num formula (CSpill num formula s a (SNum num n)) = Ok x /\
            dec_cell num read_num formula None here x = CNum num formula n s.
Proof. exact orphan_spill_number. Qed.
Print Assumptions C24_cell_orphan_spill_refuted.

(* a non-finite number comes back as the reader's fallback (0.0 since /repo 3c03706) *)
Theorem C24_cell_nonfinite_refuted :
  forall (num : Type) (show_num : num -> text) (read_num : text -> num) (formula : Type) here s n z,
  read_num (show_num n) = z ->
  exists x, enc_cell num show_num formula (CNum num formula n s) = Ok x /\
            dec_cell num read_num formula None here x = CNum num formula z s.
Proof. exact nonfinite_number_replaced. Qed.
Print Assumptions C24_cell_nonfinite_refuted.

Theorem C24_cell_text_value_refuted :
  forall (num : Type) (show_num : num -> text) (read_num : text -> num) (formula : Type) here f s,
  exists x, enc_cell num show_num formula (CFormula num formula f s (FText num [95; 120; 48; 48; 52; 49; 1])) = Ok x /\
            dec_cell num read_num formula None here x = CFormula num formula f s (FText num [65; 120; 48; 48; 48; 49; 95]).
Proof. intros. apply (cell_types_at_no_number num show_num read_num formula None); trivial. Qed.
Print Assumptions C24_cell_text_value_refuted.

(* non-vacuity: a text-valued dynamic array anchor satisfies every premise of C24_cell_types_exact *)
Example C24_cell_types_nonvacuous :
  let c := CArray Z unit tt 3 2 2 Dynamic (FText Z [60; 38; 95]) in
  evaluated Z unit c = true /\ texts_ok Z unit c = true /\ ids_ok Z unit c = true /\ exact Z unit [83; 33; 65; 49] c = true.
Proof. vm_compute. repeat split; reflexivity. Qed.

(* ================= (c) formula text ================= *)
(* tokens: C09 at the xlsx printer mode, names from the compiled tables. Premises are C09's:
   [image] (the tree is one the parser returns; leaf spelling conditions), [no_bad true] (none of the
   three associative bad pairs 1+(2+3), 1+(2-3), 1&(2&3) left after the repair of the printer),
   [lower_stable] (F62: user function names are printed in lower case). *)
Theorem C24_formula_text :
  forall lower env row col e,
  image (xlsx_mode row col) (xlsx_names lower) env e = true ->
  no_bad true e = true ->
  lower_stable (xlsx_names lower) e = true ->
  parse (xlsx_mode row col) (xlsx_names lower) env (print (xlsx_mode row col) (xlsx_names lower) e) = Some (e, []).
Proof. exact formula_tokens_roundtrip. Qed.
Print Assumptions C24_formula_text.

(* C23's xlsx-name theorem in C09's terms: the side condition of [image] on built-in function names
   holds for EVERY built-in function (Lambda is its own node kind) *)
Theorem C24_formula_function_names :
  forall lower f, 0 <= f < Z.of_nat Tables_c23.n_fn -> f <> Z.of_nat Tables_c23.fn_lambda ->
  fun_name_ok (xlsx_names lower) f = true.
Proof. exact xlsx_fun_names_ok. Qed.
Print Assumptions C24_formula_function_names.

(* characters: escaped on export, never decoded on import *)
Theorem C24_formula_chars_partial :
  forall t, forallb text_char_ok t = true -> formula_chars_ok t = true -> formula_text_read t = Ok t.
Proof. exact formula_chars_partial. Qed.
Print Assumptions C24_formula_chars_partial.

Theorem C24_formula_chars_refuted :
  formula_text_read [34; 1; 34] = Ok [34; 95; 120; 48; 48; 48; 49; 95; 34] /\
  formula_text_read [34; 95; 120; 48; 48; 52; 49; 95; 34] = Ok [34; 95; 120; 48; 48; 53; 70; 95; 120; 48; 48; 52; 49; 95; 34].
Proof. exact formula_chars_refuted. Qed.
Print Assumptions C24_formula_chars_refuted.
