(* Props/C33.v — Cell-attached metadata follows its cells.
   Statements only; every proof is [exact <lemma>] into Syntax/MetadataProofs.v (one destructs a pair first).
   Scope: the link key maps of every call site of displace_links, the loops of the block moves,
   displace_links on the store, the corner arithmetic of conditional-format ranges and the
   range text against the text stringify prints for a formula reference to the same range
   (Syntax/Metadata.v, faithful to actions.rs). Rule formulas go through to_string_displaced,
   i.e. Displace.displace_text (theorems of C12-C15). Clearing, undo and cut/paste are decided
   on the implementation by the oracle (see notes/C33.md). *)
From IronCalc Require Import Base.Prelude Base.Dec Codec.Column Codec.RefA1
  Syntax.Displace Syntax.DisplaceProofs Syntax.Metadata Syntax.MetadataProofs.

(* links, insertion: the closure of insert_rows / insert_columns is the cell relocation *)
Theorem C33_links_insert :
  forall s at_ k p, 0 < k ->
  link_insert_rows at_ k p = cell_map (DRow s at_ k) p /\
  link_insert_columns at_ k p = cell_map (DCol s at_ k) p.
Proof. exact links_insert_are_cell_map. Qed.
Print Assumptions C33_links_insert.

(* links, deletion: None exactly for the links of the deleted lines *)
Theorem C33_links_delete :
  forall s at_ k p, 0 <= k ->
  link_delete_rows at_ k p = cell_map (DRow s at_ (- k)) p /\
  link_delete_columns at_ k p = cell_map (DCol s at_ (- k)) p.
Proof. exact links_delete_are_cell_map. Qed.
Print Assumptions C33_links_delete.

(* links, single-line moves: closure + moved_links + retain + re-insertion, every delta *)
Theorem C33_links_move :
  forall s i delta p,
  link_move_row i delta p = cell_map (DRowMove s i delta) p /\
  link_move_column i delta p = cell_map (DColMove s i delta) p.
Proof. intros s i delta [r c]. exact (link_moves_are_single_move i delta r c). Qed.
Print Assumptions C33_links_move.

(* every call site at once *)
Theorem C33_links_all : forall d p, link_map d p = cell_map d p.
Proof. exact link_map_is_cell_map. Qed.
Print Assumptions C33_links_all.

(* the key maps are injective where defined: collecting into a HashMap loses no link *)
Theorem C33_links_no_collision :
  forall d p1 p2 q, link_map d p1 = Some q -> link_map d p2 = Some q -> p1 = p2.
Proof. exact link_map_injective. Qed.
Print Assumptions C33_links_no_collision.

(* the store: after displace_links a link is at k' iff it was at a k that cell_map sends to k' *)
Theorem C33_links_store :
  forall d l k' v,
  In (k', v) (displace_links (link_map d) l) <-> exists k, In (k, v) l /\ cell_map d k = Some k'.
Proof. exact displace_links_follow_cells. Qed.
Print Assumptions C33_links_store.

(* the closure of a move never leaves a link on the target line (delta <> 0), so the retain
   step of move_row_unchecked / move_column_unchecked removes only auto-created links *)
Theorem C33_links_move_retain_is_harmless :
  forall i delta p,
  (fst p = i /\ link_move_row_closure i delta p = None) \/
  (fst p <> i /\ exists p', link_move_row_closure i delta p = Some p' /\ (delta <> 0 -> fst p' <> i + delta)).
Proof. exact link_move_row_closure_spec. Qed.
Print Assumptions C33_links_move_retain_is_harmless.

(* block moves: the loops of move_rows_action / move_columns_action *)
Theorem C33_links_block_move :
  forall i n d r c,
  link_block_move true i n d (r, c) = Some (block_move i (Z.of_nat n) d r, c) /\
  link_block_move false i n d (r, c) = Some (r, block_move i (Z.of_nat n) d c).
Proof. exact (fun i n d r c => conj (link_block_move_is_block true i n d r c) (link_block_move_is_block false i n d r c)). Qed.
Print Assumptions C33_links_block_move.

(* conditional formats: the corner arithmetic IS the cell relocation (deleted = None) *)
Theorem C33_cf_corners :
  forall d s p, disp_sheet d = Some s -> cf_corner d s p = cell_map d p.
Proof. exact cf_corner_is_cell_map. Qed.
Print Assumptions C33_cf_corners.

Theorem C33_cf_corner_survives :
  forall d s p p', disp_sheet d = Some s -> cf_corner d s p = Some p' -> cell_map d p = Some p'.
Proof. exact cf_corner_survives. Qed.
Print Assumptions C33_cf_corner_survives.

Theorem C33_cf_other_sheet :
  forall d s s' p, disp_sheet d = Some s' -> s <> s' -> cf_corner d s p = Some p.
Proof. exact cf_corner_other_sheet. Qed.
Print Assumptions C33_cf_other_sheet.

(* "C33_cf_vs_formula" at full strength (no side condition) is FALSE: *)
Theorem C33_cf_vs_formula_refuted :
  let d := DRow 0 3 (-2) in
  cf_sqref d 0 t_A3A6 = t_A3A6 /\
  cf_part d 0 t_A3A6 = cf_pair d 0 t_A3A6 (3, 1) (6, 1) /\
  displace_range_text d (1, 2) (rel_range 0 (1, 2) (3, 1) (6, 1)) = t_REF_A4 /\
  cell_map d (3, 1) = None /\ cell_map d (6, 1) = Some (4, 1) /\
  cf_pair d 0 t_A3A6 (3, 1) (6, 1) <> displace_range_text d (1, 2) (rel_range 0 (1, 2) (3, 1) (6, 1)).
Proof. exact cf_vs_formula_refuted_deleted_corner. Qed.
Print Assumptions C33_cf_vs_formula_refuted.

Theorem C33_cf_vs_formula_refuted_off_grid :
  let d := DCol 0 2 1 in
  cf_sqref d 0 t_A1XFD1 = t_A1XFD1 /\
  cf_part d 0 t_A1XFD1 = cf_pair d 0 t_A1XFD1 (1, 1) (1, 16384) /\
  displace_range_text d (2, 1) (rel_range 0 (2, 1) (1, 1) (1, 16384)) = t_A1_REF /\
  cf_corner_deleted d 0 (1, 16384) = false /\
  cf_pair d 0 t_A1XFD1 (1, 1) (1, 16384) <> displace_range_text d (2, 1) (rel_range 0 (2, 1) (1, 1) (1, 16384)).
Proof. exact cf_vs_formula_refuted_corner_off_grid. Qed.
Print Assumptions C33_cf_vs_formula_refuted_off_grid.

(* ... and TRUE outside the class [cf_defect] (a corner deleted, a corner pushed beyond the last
   column, a row below 1): the displaced range is the text a formula in any cell q holding a
   reference to the same range would show *)
Theorem C33_cf_partial :
  forall d s q orig p1 p2,
  disp_sheet d = Some s -> cf_defect d s p1 p2 = false ->
  cf_pair d s orig p1 p2 = displace_range_text d q (rel_range s q p1 p2).
Proof. exact (fun d s q orig p1 p2 _ => cf_range_is_formula_range d s q orig p1 p2). Qed.
Print Assumptions C33_cf_partial.

Theorem C33_cf_partial_single_cell :
  forall d s q orig p,
  disp_sheet d = Some s ->
  cf_corner_deleted d s p = false -> cf_corner_off_grid d s p = false ->
  cf_cell d s orig p =
  displace_text d false false q
    {| a_sheet := s; a_row := fst p - fst q; a_col := snd p - snd q; a_abs_row := false; a_abs_col := false |}.
Proof. exact (fun d s q orig p _ => cf_cell_is_formula_ref d s q orig p). Qed.
Print Assumptions C33_cf_partial_single_cell.

(* inside the class (deleted corner) the stored text is returned as it is *)
Theorem C33_cf_unchanged_when_corner_deleted :
  forall d s orig p1 p2,
  cf_corner_deleted d s p1 = true \/ cf_corner_deleted d s p2 = true ->
  cf_pair d s orig p1 p2 = orig.
Proof. exact cf_range_unchanged_when_corner_deleted. Qed.
Print Assumptions C33_cf_unchanged_when_corner_deleted.

(* the "row below 1" part of the class is unreachable through the validated operations *)
Theorem C33_cf_rows_stay_positive :
  forall d s p r c,
  disp_valid d -> 1 <= fst p -> 1 <= snd p -> cf_corner d s p = Some (r, c) -> 1 <= r /\ 1 <= c.
Proof. exact cf_rows_stay_positive. Qed.
Print Assumptions C33_cf_rows_stay_positive.

(* non-vacuity: two rows inserted inside A3:A6 — not in the class, both texts are A3:A8;
   a link on row 7 under a move of row 3 by +5 *)
Example C33_nonvacuous_cf :
  cf_defect (DRow 0 5 2) 0 (3, 1) (6, 1) = false /\
  cf_sqref (DRow 0 5 2) 0 t_A3A6 = [65; 51; 58; 65; 56] /\
  displace_range_text (DRow 0 5 2) (1, 2) (rel_range 0 (1, 2) (3, 1) (6, 1)) = [65; 51; 58; 65; 56].
Proof. exact cf_range_grows. Qed.

Example C33_nonvacuous_links :
  link_map (DRow 0 3 (-2)) (4, 2) = None /\ link_map (DRow 0 3 (-2)) (6, 2) = Some (4, 2) /\
  link_map (DRowMove 0 3 5) (3, 2) = Some (8, 2) /\ link_map (DRowMove 0 3 5) (7, 2) = Some (6, 2).
Proof. vm_compute. repeat split; reflexivity. Qed.
