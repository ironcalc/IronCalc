(* Props/C12.v — Inserting rows or columns preserves every value.
   Statements only; every proof is [exact <lemma>] into Syntax/DisplaceProofs.v, or a line or two
   that instantiate a more general lemma of that file.
   Scope: the reference clause, the range clause and the #REF! clause of the statement, for
   the faithful model of stringify_reference / RangeKind / move_cell / the parser's reference
   construction (Syntax/Displace.v). The content clause (cells re-typed by move_cell) and the
   value clause are decided on the implementation by the oracle (see notes/C12.md). *)
From IronCalc Require Import Base.Prelude Base.Dec Codec.Column Codec.RefA1
  Syntax.Displace Syntax.DisplaceProofs.

(* the rewrite arithmetic and the relocation of cells are one and the same function: on the
   edited sheet the displaced target of a reference IS the place its target cell goes *)
Theorem C12_references_follow_cells :
  forall d s p, disp_sheet d = Some s -> displace_pos d false false s p = cell_map d p.
Proof. exact displace_pos_is_cell_map. Qed.
Print Assumptions C12_references_follow_cells.

(* columns, full statement: for every formula cell q (on the edited sheet or not), every stored
   reference a (all four absolute/relative combinations) to a cell (row, col) of the grid,
   every insertion position c and count k > 0: after move_cell + displace + re-parse, the stored
   reference, read from the MOVED anchor q', points at cell_map (row, col) with the same flags
   when that is on the grid, and is "#REF!" exactly when it is pushed beyond the last column *)
Theorem C12_refs_follow_columns :
  forall s c k same q q' a row col,
  0 < k -> a_sheet a = s -> resolve q a = (row, col) ->
  1 <= row <= LAST_ROW -> 1 <= col <= LAST_COLUMN ->
  anchor_map (DCol s c k) same q = Some q' ->
  let col' := if c <=? col then col + k else col in
  cell_map (DCol s c k) (row, col) = Some (row, col') /\
  (col' <= LAST_COLUMN ->
     exists a', apply_disp_full (DCol s c k) same q a = RwRef q' a' /\ follows q' a a' (row, col')) /\
  (LAST_COLUMN < col' -> apply_disp_full (DCol s c k) same q a = RwRefError).
Proof. exact ins_col_rewrite. Qed.
Print Assumptions C12_refs_follow_columns.

(* rows: the same on the grid; beyond the last row the code does NOT produce "#REF!" *)
Theorem C12_refs_follow_rows_partial :
  forall s r k same q q' a row col,
  0 < k -> a_sheet a = s -> resolve q a = (row, col) ->
  1 <= row <= LAST_ROW -> 1 <= col <= LAST_COLUMN ->
  anchor_map (DRow s r k) same q = Some q' ->
  let row' := if r <=? row then row + k else row in
  cell_map (DRow s r k) (row, col) = Some (row', col) /\
  (row' <= LAST_ROW ->
     exists a', apply_disp_full (DRow s r k) same q a = RwRef q' a' /\ follows q' a a' (row', col)) /\
  (LAST_ROW < row' -> apply_disp_full (DRow s r k) same q a = RwUnreadable).
Proof. exact ins_row_rewrite. Qed.
Print Assumptions C12_refs_follow_rows_partial.

(* the finding: "=B$1048576" in A1, one row inserted at row 2 *)
Theorem C12_row_overflow_refuted :
  exists s r k same q a,
    0 < k /\ grid q /\ grid (resolve q a) /\ a_sheet a = s /\
    r <= fst (resolve q a) /\ LAST_ROW < fst (resolve q a) + k /\
    apply_disp_full (DRow s r k) same q a = RwUnreadable /\
    apply_disp_full (DRow s r k) same q a <> RwRefError /\
    displace_text (DRow s r k) false false q a = [66; 36; 49; 48; 52; 56; 53; 55; 55] /\
    parse_reference_a1 (displace_text (DRow s r k) false false q a) = None.
Proof. exact ins_row_overflow_refuted. Qed.
Print Assumptions C12_row_overflow_refuted.

(* what is printed (the text handed back to the parser) and that it reads back *)
Theorem C12_printed_reference_rows :
  forall s r k q a fc row col,
  0 < k -> a_sheet a = s -> resolve q a = (row, col) -> 1 <= row -> 1 <= col <= LAST_COLUMN ->
  let row' := if r <=? row then row + k else row in
  cell_map (DRow s r k) (row, col) = Some (row', col) /\
  displace (DRow s r k) false fc q a = Some (mkp row' col a).
Proof.
  intros s r k q a fc row col Hk Hs Hres Hr Hc. cbn [cell_map].
  rewrite (row_ref s r k q a fc row col), line_map_ins by (trivial; lia). split; reflexivity.
Qed.
Print Assumptions C12_printed_reference_rows.

Theorem C12_printed_reference_columns :
  forall s c k q a fr row col,
  0 < k -> a_sheet a = s -> resolve q a = (row, col) -> 1 <= row -> 1 <= col <= LAST_COLUMN ->
  let col' := if c <=? col then col + k else col in
  cell_map (DCol s c k) (row, col) = Some (row, col') /\
  (col' <= LAST_COLUMN -> displace (DCol s c k) fr false q a = Some (mkp row col' a)) /\
  (LAST_COLUMN < col' -> displace (DCol s c k) fr false q a = None).
Proof.
  intros s c k q a fr row col Hk Hs Hres Hr Hc. cbn [cell_map].
  pose proof (col_ref s c k q a fr row col Hs Hres Hr Hc ltac:(lia)) as H. rewrite line_map_ins in * by exact Hk. auto.
Qed.
Print Assumptions C12_printed_reference_columns.

Theorem C12_text_reads_back :
  forall d q a p,
  displace d false false q a = Some p -> p_row p <= LAST_ROW ->
  parse_reference_a1 (displace_text d false false q a) = Some p.
Proof. exact displace_text_reads_back. Qed.
Print Assumptions C12_text_reads_back.

(* move_cell re-types the formula in the moved cell: same absolute target, same flags *)
Theorem C12_move_cell_keeps_target :
  forall q q' a,
  1 <= fst (resolve q a) <= LAST_ROW -> 1 <= snd (resolve q a) <= LAST_COLUMN ->
  exists a', rebase q q' a = Some a' /\ resolve q' a' = resolve q a /\
             a_abs_row a' = a_abs_row a /\ a_abs_col a' = a_abs_col a /\ a_sheet a' = a_sheet a.
Proof.
  intros q q' a Hr Hc. destruct (resolve q a) as [row col] eqn:E.
  exact (rebase_keeps_target q q' a row col E Hr Hc).
Qed.
Print Assumptions C12_move_cell_keeps_target.

(* the relative offset is recomputed from the moved anchor *)
Theorem C12_anchor_and_target_move_together :
  forall s r k q q' a a' p,
  0 < k -> a_abs_row a = false ->
  cell_map (DRow s r k) q = Some q' ->
  rebase q q' a = Some a' ->
  displace (DRow s r k) false false q' a' = Some p -> a_sheet a = s ->
  a_row (of_pref s q' p) =
    a_row a + (if r <=? fst (resolve q a) then k else 0) - (if r <=? fst q then k else 0).
Proof. exact anchor_and_target_move_together. Qed.
Print Assumptions C12_anchor_and_target_move_together.

(* references to other sheets are left alone *)
Theorem C12_other_sheet_unchanged :
  forall d s' q a fr fc row col,
  disp_sheet d = Some s' -> a_sheet a <> s' -> resolve q a = (row, col) ->
  1 <= row -> 1 <= col <= LAST_COLUMN ->
  displace d fr fc q a = Some (mkp row col a).
Proof. exact other_sheet_ref_unchanged. Qed.
Print Assumptions C12_other_sheet_unchanged.

(* ranges: r1 < r <= r2 grows to [r1, r2 + k]; r <= r1 shifts; r > r2 is unchanged *)
Theorem C12_ranges_rows :
  forall s r k q g r1 c1 r2 c2,
  0 < k -> g_sheet g = s -> is_full_row g = false ->
  resolve q (corner1 g) = (r1, c1) -> resolve q (corner2 g) = (r2, c2) ->
  1 <= r1 -> 1 <= r2 -> 1 <= c1 <= LAST_COLUMN -> 1 <= c2 <= LAST_COLUMN ->
  displace_range (DRow s r k) q g =
    (Some (mkp (if r <=? r1 then r1 + k else r1) c1 (corner1 g)),
     Some (mkp (if r <=? r2 then r2 + k else r2) c2 (corner2 g))).
Proof.
  intros s r k q g r1 c1 r2 c2 Hk Hs Hf H1 H2 Hr1 Hr2 Hc1 Hc2. unfold displace_range.
  rewrite Hf, (row_ref s r k q _ _ r1 c1), (row_ref s r k q _ _ r2 c2), !line_map_ins by (trivial; lia). reflexivity.
Qed.
Print Assumptions C12_ranges_rows.

Theorem C12_ranges_grow_shift_or_stay :
  forall r k r1 r2,
  0 < k -> r1 <= r2 ->
  (r1 < r <= r2 -> (if r <=? r1 then r1 + k else r1) = r1 /\ (if r <=? r2 then r2 + k else r2) = r2 + k) /\
  (r <= r1 -> (if r <=? r1 then r1 + k else r1) = r1 + k /\ (if r <=? r2 then r2 + k else r2) = r2 + k) /\
  (r2 < r -> (if r <=? r1 then r1 + k else r1) = r1 /\ (if r <=? r2 then r2 + k else r2) = r2).
Proof. exact ins_row_range_cases. Qed.
Print Assumptions C12_ranges_grow_shift_or_stay.

Theorem C12_ranges_columns :
  forall s c k q g r1 c1 r2 c2,
  0 < k -> g_sheet g = s -> is_full_col g = false ->
  resolve q (corner1 g) = (r1, c1) -> resolve q (corner2 g) = (r2, c2) ->
  1 <= r1 -> 1 <= r2 -> 1 <= c1 <= LAST_COLUMN -> 1 <= c2 <= LAST_COLUMN ->
  (if c <=? c2 then c2 + k else c2) <= LAST_COLUMN -> c1 <= c2 ->
  displace_range (DCol s c k) q g =
    (Some (mkp r1 (if c <=? c1 then c1 + k else c1) (corner1 g)),
     Some (mkp r2 (if c <=? c2 then c2 + k else c2) (corner2 g))).
Proof. exact ins_col_range. Qed.
Print Assumptions C12_ranges_columns.

(* "A:C" ignores row edits, "2:5" ignores column edits *)
Theorem C12_full_row_range_exempt :
  forall s r delta q g c1 c2,
  is_full_row g = true ->
  snd (resolve q (corner1 g)) = c1 -> snd (resolve q (corner2 g)) = c2 ->
  1 <= c1 <= LAST_COLUMN -> 1 <= c2 <= LAST_COLUMN ->
  displace_range (DRow s r delta) q g =
    (Some (mkp 1 c1 (corner1 g)), Some (mkp LAST_ROW c2 (corner2 g))).
Proof. exact full_row_range_exempt. Qed.
Print Assumptions C12_full_row_range_exempt.

Theorem C12_full_col_range_exempt :
  forall s c delta q g r1 r2,
  is_full_col g = true ->
  fst (resolve q (corner1 g)) = r1 -> fst (resolve q (corner2 g)) = r2 ->
  1 <= r1 -> 1 <= r2 ->
  displace_range (DCol s c delta) q g =
    (Some (mkp r1 1 (corner1 g)), Some (mkp r2 LAST_COLUMN (corner2 g))).
Proof. exact full_col_range_exempt. Qed.
Print Assumptions C12_full_col_range_exempt.

(* F27 repaired (commit 3e01966): insert_rows / insert_columns validate their index exactly as
   the deletions do — every accepted insertion has a positive count and 1 <= index <= last *)
Theorem C12_accepted_insert_index_on_grid :
  forall last r delta,
  0 <= delta -> edit_valid last r delta = true -> 0 < delta /\ 1 <= r <= last.
Proof. intros last r delta. rewrite edit_valid_spec. lia. Qed.
Print Assumptions C12_accepted_insert_index_on_grid.

Theorem C12_insert_accepted_iff_index_on_grid :
  forall last r k, 0 < k -> (edit_valid last r k = true <-> 1 <= r <= last).
Proof. intros last r k Hk. rewrite edit_valid_spec. lia. Qed.
Print Assumptions C12_insert_accepted_iff_index_on_grid.

(* the former witnesses insert_rows(0,0,2), insert_rows(0,-3,1), insert_columns(0,0,1) are refused *)
Example C12_insert_below_one_refused :
  edit_valid LAST_ROW 0 2 = false /\ edit_valid LAST_ROW (-3) 1 = false /\
  edit_valid LAST_COLUMN 0 1 = false /\ edit_valid LAST_ROW (LAST_ROW + 1) 1 = false /\
  edit_valid LAST_ROW 1 1 = true /\ edit_valid LAST_ROW LAST_ROW 7 = true.
Proof. exact insert_below_one_refused. Qed.

(* non-vacuity: "=B$5" in C7, two rows inserted at row 3 -> "=B$7" in C9 *)
Example C12_nonvacuous :
  apply_disp_full (DRow 0 3 2) true (7, 3)
    {| a_sheet := 0; a_row := 5; a_col := -1; a_abs_row := true; a_abs_col := false |} =
  RwRef (9, 3) {| a_sheet := 0; a_row := 7; a_col := -1; a_abs_row := true; a_abs_col := false |}.
Proof. exact ins_row_rewrite_example. Qed.
