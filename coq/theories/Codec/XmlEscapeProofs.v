(* Codec/XmlEscapeProofs.v — the escaping codec round trip: refuted in general, proved outside
   the class [collides] (unbounded: every text, by induction). *)
From IronCalc Require Import Base.Prelude Codec.XmlEscape.

(* a character the XML parser hands over as it is *)
Definition plain (c : Z) : bool :=
  negb (c =? 38) && negb (c =? 60) && negb (c =? 13) && xml_char_ok c.

(* ---------- hex digits ---------- *)
Lemma hex_not_underscore h : is_hex h = true -> h <> 95.
Proof. unfold is_hex, is_digit. lia. Qed.

Lemma hex_plain h : is_hex h = true -> plain h = true.
Proof. unfold is_hex, is_digit, plain, xml_char_ok. lia. Qed.

Lemma is_hex_digit n : is_hex (hex_digit (n mod 16)) = true.
Proof.
  pose proof (Z.mod_pos_bound n 16 eq_refl). unfold is_hex, is_digit, hex_digit.
  destruct (Z.ltb_spec (n mod 16) 10); lia.
Qed.

Lemma hex_val_digit n : hex_val (hex_digit (n mod 16)) = n mod 16.
Proof.
  pose proof (Z.mod_pos_bound n 16 eq_refl). unfold hex_val, is_digit, hex_digit.
  destruct (Z.ltb_spec (n mod 16) 10).
  - replace (_ && _) with true by lia. lia.
  - replace (_ && _) with false by lia. replace (_ && _) with true by lia. lia.
Qed.

(* {:04X} then from_str_radix(_, 16) *)
Lemma code4_hex4 n : 0 <= n < 65536 ->
  code4 (hex_digit (n / 4096 mod 16)) (hex_digit (n / 256 mod 16)) (hex_digit (n / 16 mod 16)) (hex_digit (n mod 16)) = n.
Proof. intro H. unfold code4. rewrite !hex_val_digit. Z.div_mod_to_equations. lia. Qed.

(* ---------- one step of [decode] and of [collides] ---------- *)
(* The unfolding equations with the tail a variable: rewriting with them takes exactly one step.
   On a tail of known length [cbn [decode]] goes on unfolding the recursive calls in both
   branches, and the term doubles at every character.
   The decoder's test is [starts_pattern] and char::from_u32. *)
Lemma decode_cons c r :
  decode (c :: r) =
  match r with
  | b :: h1 :: h2 :: h3 :: h4 :: u :: t =>
      if starts_pattern (c :: b :: h1 :: h2 :: h3 :: h4 :: u :: t) && negb (is_surrogate (code4 h1 h2 h3 h4))
      then code4 h1 h2 h3 h4 :: decode t else c :: decode r
  | _ => c :: decode r
  end.
Proof. reflexivity. Qed.

Lemma collides_cons c r :
  collides (c :: r) =
  match r with
  | b :: h1 :: h2 :: h3 :: h4 :: d :: _ =>
      (c =? 95) && (b =? 120) && is_hex h1 && is_hex h2 && is_hex h3 && is_hex h4
      && negb (is_surrogate (code4 h1 h2 h3 h4)) && needs_xlsx_escape d || collides r
  | _ => collides r
  end.
Proof. reflexivity. Qed.

Lemma collides_tail c r : collides (c :: r) = false -> collides r = false.
Proof.
  destruct r as [|b [|h1 [|h2 [|h3 [|h4 [|d r']]]]]]; try (intro H; exact H).
  rewrite collides_cons. intro H. apply orb_false_iff in H. exact (proj2 H).
Qed.

(* ---------- decode on the three kinds of chunk ---------- *)
(* `_xHHHH_` written for any n below 0x10000 that is a char is read back as n *)
Lemma decode_chunk n t : 0 <= n < 65536 -> is_surrogate n = false ->
  decode (ctrl_chunk n ++ t) = n :: decode t.
Proof.
  intros Hn Hs. unfold ctrl_chunk, hex4. cbn [app]. rewrite decode_cons. cbn [starts_pattern].
  rewrite code4_hex4, Hs, !is_hex_digit by exact Hn. reflexivity.
Qed.

Lemma ctrl_range c : needs_xlsx_escape c = true -> 0 <= c <= 31.
Proof. unfold needs_xlsx_escape. lia. Qed.

Lemma decode_ctrl c t : needs_xlsx_escape c = true -> decode (ctrl_chunk c ++ t) = c :: decode t.
Proof. intro H. apply ctrl_range in H. apply decode_chunk; unfold is_surrogate; lia. Qed.

Lemma decode_5f t : decode (t_5f ++ t) = 95 :: decode t.
Proof. reflexivity. Qed.

(* a character that is not '_' at the head of [xesc r] is a literal character of r *)
Lemma xesc_head a t r : xesc r = a :: t -> a <> 95 ->
  exists r', r = a :: r' /\ xesc r' = t.
Proof.
  intros H Ha. destruct r as [|d r']; [discriminate H|].
  cbn [xesc] in H.
  destruct (needs_xlsx_escape d); [|destruct (_ && _)]; inversion H; subst; [congruence..|].
  exists r'. split; reflexivity.
Qed.

(* ... and a '_' there is a literal '_' or the first character of a control character's chunk *)
Lemma xesc_head_us t r : xesc r = 95 :: t ->
  exists d r', r = d :: r' /\ (needs_xlsx_escape d = true \/ d = 95).
Proof.
  destruct r as [|d r']; [discriminate|]. cbn [xesc]. intro H. exists d, r'. split; [reflexivity|].
  destruct (needs_xlsx_escape d); [left; reflexivity|right].
  destruct (d =? 95) eqn:E; [lia|]. inversion H. lia.
Qed.

(* the step for a character written as itself: the decoder sees no pattern at it *)
Lemma decode_plain c r :
  needs_xlsx_escape c = false -> (c =? 95) && starts_pattern (c :: r) = false ->
  collides (c :: r) = false ->
  decode (c :: xesc r) = c :: decode (xesc r).
Proof.
  intros Hn Hp Hc.
  destruct (xesc r) as [|b [|h1 [|h2 [|h3 [|h4 [|u t]]]]]] eqn:EX; try reflexivity.
  rewrite decode_cons.
  destruct (starts_pattern (c :: b :: _)) eqn:SP; [|reflexivity].
  destruct (is_surrogate _) eqn:SU; [reflexivity|]. exfalso.
  cbn [starts_pattern] in SP. rewrite !andb_true_iff, !Z.eqb_eq in SP.
  destruct SP as [[[[[[-> ->] ->] H1] H2] H3] H4].
  (* 'x' and the hex digits are not '_': they stand in r itself, followed by some d *)
  do 5 (apply xesc_head in EX as (? & -> & EX); [|auto using hex_not_underscore; lia]).
  (* d is '_' (then r starts a pattern) or a control character (then r collides) *)
  apply xesc_head_us in EX as (d & ? & -> & Hd).
  rewrite collides_cons in Hc. cbn [starts_pattern] in Hp. rewrite H1, H2, H3, H4 in Hc, Hp. rewrite SU in Hc.
  destruct Hd as [Hd| ->]; [rewrite Hd in Hc|]; lia.
Qed.

(* ---------- the `_xHHHH_` layer round trip ---------- *)
Theorem decode_xesc s : collides s = false -> decode (xesc s) = s.
Proof.
  induction s as [|c r IH]; intro Hc; [reflexivity|].
  pose proof (collides_tail _ _ Hc) as Hr.
  cbn [xesc].
  destruct (needs_xlsx_escape c) eqn:Hn.
  - rewrite decode_ctrl by exact Hn. rewrite IH by exact Hr. reflexivity.
  - destruct ((c =? 95) && starts_pattern (c :: r)) eqn:Hp.
    + rewrite decode_5f. rewrite IH by exact Hr.
      f_equal. lia.
    + cbn [app]. rewrite decode_plain by assumption. rewrite IH by exact Hr. reflexivity.
Qed.

(* ---------- the XML layer ---------- *)
Definition oapp (p : text) (o : outcome text) : outcome text :=
  match o with Ok t => Ok (p ++ t) | Err => Err | Panic => Panic end.

Lemma xun_plain c r : plain c = true -> xun None (c :: r) = ocons c (xun None r).
Proof.
  unfold plain. intro H. cbn [xun].
  destruct (c =? 38), (c =? 60), (c =? 13), (xml_char_ok c); try discriminate H. reflexivity.
Qed.

Lemma xun_plains p r : forallb plain p = true -> xun None (p ++ r) = oapp p (xun None r).
Proof.
  induction p as [|c p IH]; cbn [forallb app]; intro H.
  - destruct (xun None r); reflexivity.
  - apply andb_true_iff in H as [Hc Hp]. rewrite xun_plain, IH by assumption.
    destruct (xun None r); reflexivity.
Qed.

Lemma chunk_plain n : forallb plain (ctrl_chunk n) = true.
Proof.
  unfold ctrl_chunk, hex4. cbn [app forallb]. rewrite !(hex_plain (hex_digit _)) by apply is_hex_digit. reflexivity.
Qed.

(* the five entities and the two character references, or the character itself *)
Lemma xun_escape_char c r : needs_xlsx_escape c = false -> text_char_ok c = true ->
  xun None (escape_char c ++ r) = ocons c (xun None r).
Proof.
  intros Hn Hc. unfold escape_char.
  repeat match goal with |- context [c =? ?k] => destruct (Z.eqb_spec c k) as [->|]; [reflexivity|] end.
  apply xun_plain. unfold text_char_ok in Hc. rewrite Hn in Hc. unfold plain. cbn [orb] in Hc. rewrite Hc. lia.
Qed.

(* the XML parser undoes exactly the entity layer of the writer *)
Theorem xml_unescape_escape s :
  forallb text_char_ok s = true -> xml_unescape (escape s) = Ok (xesc s).
Proof.
  unfold xml_unescape. induction s as [|c r IH]; intro Hok; [reflexivity|].
  cbn [forallb] in Hok. apply andb_true_iff in Hok as [Hc Hr].
  specialize (IH Hr). cbn [escape xesc].
  destruct (needs_xlsx_escape c) eqn:Hn; [|destruct (_ && _)].
  - rewrite xun_plains, IH by apply chunk_plain. reflexivity.
  - rewrite xun_plains, IH by reflexivity. reflexivity.
  - rewrite xun_escape_char, IH by assumption. reflexivity.
Qed.

(* ---------- the codec round trip ---------- *)
Theorem roundtrip_partial s :
  forallb text_char_ok s = true -> collides s = false -> roundtrip s = Ok s.
Proof.
  intros Hok Hc. unfold roundtrip. rewrite xml_unescape_escape by exact Hok.
  rewrite decode_xesc by exact Hc. reflexivity.
Qed.

Definition witness : text := [95; 120; 48; 48; 52; 49; 1].              (* "_x0041\x01" *)

Lemma roundtrip_witness :
  escape witness = [95; 120; 48; 48; 52; 49; 95; 120; 48; 48; 48; 49; 95]     (* _x0041_x0001_ *)
  /\ roundtrip witness = Ok [65; 120; 48; 48; 48; 49; 95]                   (* "Ax0001_" *)
  /\ forallb text_char_ok witness = true /\ collides witness = true.
Proof. vm_compute. repeat split; reflexivity. Qed.

Theorem roundtrip_refuted :
  exists s, forallb text_char_ok s = true /\ roundtrip s <> Ok s.
Proof.
  exists witness. destruct roundtrip_witness as [_ [H [Hok _]]]. split; [exact Hok|].
  rewrite H. intro E. inversion E.
Qed.

(* a surrogate-valued look-alike is harmless: char::from_u32 rejects it and the '_' stays *)
Example surrogate_lookalike_roundtrips :
  collides [95; 120; 68; 56; 48; 48; 1] = false /\
  roundtrip [95; 120; 68; 56; 48; 48; 1] = Ok [95; 120; 68; 56; 48; 48; 1].
Proof. vm_compute. split; reflexivity. Qed.

(* U+FFFE / U+FFFF are written raw and are not XML characters: the reader rejects the file *)
Lemma noncharacter_rejected : roundtrip [65; 65534] = Err /\ roundtrip [65535] = Err.
Proof. vm_compute. split; reflexivity. Qed.
