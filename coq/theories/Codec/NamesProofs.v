(* Codec/NamesProofs.v — theorems about the name lookups (Codec/Names.v) over the generated tables.
   The domains (languages x functions, languages x errors) are finite and ARE the quantifier of
   the property: what holds of each table entry is decided by [vm_compute] on a boolean sweep, once
   per fact, and the theorems follow from those facts by lemmas. The statements with an arbitrary
   continuation [rest] are proved by induction from a prefix-freeness check of the tables. *)
From IronCalc Require Import Base.Prelude Generated.Tables_c23 Codec.Names.

(* sizes, for non-vacuity *)
Lemma sizes : (0 < n_lang)%nat /\ (0 < n_fn)%nat /\ n_err = 12%nat
              /\ forallb (fun l => Nat.eqb (length l) n_fn) fn_names = true
              /\ length fn_names = n_lang /\ length err_names = n_lang
              /\ length xlsx_names = n_fn /\ forallb (fun l => Nat.eqb (length l) n_fn) lookup_tbls = true.
Proof. vm_compute. repeat split; try reflexivity; lia. Qed.

(* ---------- lifting ---------- *)
Lemma seq_forallb (P : nat -> bool) n :
  forallb P (seq 0 n) = true -> forall i, (i < n)%nat -> P i = true.
Proof.
  intros H i Hi. rewrite forallb_forall in H. apply H. apply in_seq. lia.
Qed.

Definition opt_is (o : option nat) (f : nat) : bool :=
  match o with Some g => Nat.eqb g f | None => false end.
Lemma opt_is_true o f : opt_is o f = true <-> o = Some f.
Proof.
  destruct o as [g|]; cbn [opt_is]; [rewrite Nat.eqb_eq; split; congruence | split; discriminate].
Qed.

(* A sweep over the first [n] rows of two tables side by side, numbering the rows from [f].
   ([nth f] walks f cells: a sweep written with it walks the 495-row tables once per name.) *)
Fixpoint rows (P : nat -> text -> text -> bool) (f n : nat) (l1 l2 : list text) : bool :=
  match n with
  | O => true
  | S n' => match l1, l2 with
            | a :: l1', b :: l2' => P f a b && rows P (S f) n' l1' l2'
            | _, _ => false
            end
  end.

Lemma rows_nth P n : forall f l1 l2, rows P f n l1 l2 = true ->
  forall i, (i < n)%nat -> P (f + i)%nat (nth i l1 []) (nth i l2 []) = true.
Proof.
  induction n as [|n IH]; intros f l1 l2 H i Hi; [lia|].
  destruct l1 as [|a l1], l2 as [|b l2]; try discriminate H.
  cbn [rows] in H. apply andb_true_iff in H as [Ha Hr].
  destruct i as [|i]; cbn [nth].
  - rewrite Nat.add_0_r. exact Ha.
  - rewrite Nat.add_succ_r. apply (IH (S f)); [exact Hr | lia].
Qed.

(* every function name of every language, with Rust's upper-casing of it *)
Definition all_names (P : nat -> nat -> text -> text -> bool) : bool :=
  forallb (fun lang => rows (P lang) 0 n_fn (nth lang fn_names []) (nth lang fn_names_upper [])) (seq 0 n_lang).

Lemma all_names_spec P : all_names P = true ->
  forall lang f, (lang < n_lang)%nat -> (f < n_fn)%nat -> P lang f (localized lang f) (localized_upper lang f) = true.
Proof. intros H lang f Hl Hf. exact (rows_nth _ _ _ _ _ (seq_forallb _ _ H lang Hl) f Hf). Qed.

(* ---------- first_eq through an index on the first character ----------
   [first_eq] compares the key with every row in turn: looking up each name of a 495-row table is
   some 120 000 text comparisons per language, which a kernel without the bytecode machine pays
   at full price. Only rows whose first character is the key's can match; [index] collects them once
   per table for the characters [cs], and [first_eq_ix] searches there. *)
Definition head (t : text) : Z := match t with c :: _ => c | [] => 0 end.
Definition rows_of (c : Z) (tbl : list (nat * text)) : list (nat * text) :=
  filter (fun p => head (snd p) =? c) tbl.

Lemma first_eq_rows tbl key : first_eq (rows_of (head key) tbl) key = first_eq tbl key.
Proof.
  induction tbl as [|[f n] tl IH]; [reflexivity|].
  cbn [rows_of filter snd first_eq]. fold (rows_of (head key) tl).
  destruct (text_eqb n key) eqn:E.
  - apply text_eqb_eq in E. subst n. rewrite Z.eqb_refl. cbn [first_eq]. rewrite text_eqb_refl. reflexivity.
  - destruct (head n =? head key); [cbn [first_eq]; rewrite E|]; exact IH.
Qed.

Definition index (cs : list Z) (tbl : list (nat * text)) : list (Z * list (nat * text)) :=
  map (fun c => (c, rows_of c tbl)) cs.
Definition first_eq_ix (ix : list (Z * list (nat * text))) (tbl : list (nat * text)) (key : text) : option nat :=
  first_eq (match assoc_z (head key) ix with Some rs => rs | None => rows_of (head key) tbl end) key.

Lemma first_eq_ix_ok cs tbl key : first_eq_ix (index cs tbl) tbl key = first_eq tbl key.
Proof.
  rewrite <- (first_eq_rows tbl key). unfold first_eq_ix. f_equal.
  induction cs as [|c cs IH]; [reflexivity|]. cbn [index map assoc_z].
  destruct (Z.eqb_spec (head key) c) as [->|_]; [reflexivity | exact IH].
Qed.

Definition capitals : list Z := map Z.of_nat (seq 65 26).

(* ---------- the findings: the classes the partial theorems exclude ---------- *)
(* (language code, Function variant) whose localized name is also the name of a function that
   comes earlier in the lookup: es XNPV (shadowed by RECEIVED, both "VNA.NO.PER") and
   fr TBILLEQ (shadowed by YIELDDISC, both "TAUX.ESCOMPTE.R") *)
Definition shadowed_list : list (text * text) :=
  [ ([101; 115], [88; 110; 112; 118]);                       (* "es", "Xnpv" *)
    ([102; 114], [84; 98; 105; 108; 108; 101; 113]) ].       (* "fr", "Tbilleq" *)

Definition known_shadowed (lang f : nat) : bool :=
  existsb (fun p => text_eqb (fst p) (nth lang languages []) && text_eqb (snd p) (nth f fn_variants []))
          shadowed_list.

(* ---------- functions ---------- *)
(* [char_upper] has no entry below 'a' (97): text made of such characters is its own upper case *)
Lemma upper_low s : forallb (fun c => c <? 97) s = true -> upper s = s.
Proof.
  induction s as [|c s IH]; [reflexivity|]. cbn [forallb]. intros [Hc%Z.ltb_lt Hs]%andb_true_iff.
  unfold upper in *. cbn [flat_map]. rewrite (IH Hs). unfold upper_char.
  enough (assoc_z c char_upper = None) as ->; [reflexivity|].
  assert (K : forallb (fun p => 97 <=? fst p) char_upper = true) by (vm_compute; reflexivity).
  revert K. generalize char_upper as l. induction l as [|[k v] l IHl]; [reflexivity|].
  cbn [forallb fst assoc_z]. intros [Hk%Z.leb_le Hl]%andb_true_iff.
  destruct (Z.eqb_spec c k); [lia | exact (IHl Hl)].
Qed.

(* upper-casing: the character-level model agrees with Rust's to_uppercase on every name
   (most names are capitals, digits and dots, and do not need the map searched) *)
Lemma upper_table_b :
  all_names (fun _ _ name up => text_eqb (if forallb (fun c => c <? 97) name then name else upper name) up) = true.
Proof. vm_compute. reflexivity. Qed.

(* the one sweep that runs the lookups: the upper-cased name of f finds f exactly outside the class *)
Lemma lookup_names_b :
  all_names (fun lang => let tbl := lookup_tbl lang in let ix := index capitals tbl in
             fun f _ up => Bool.eqb (opt_is (first_eq_ix ix tbl up) f) (negb (known_shadowed lang f))) = true.
Proof. vm_compute. reflexivity. Qed.

(* What else [call] looks at, for every name of the tables: it is lexed as one identifier, does not
   begin with '_' (so no prefix is trimmed and it is none of the _xlfn. keywords), and its upper
   case is a boolean name or LAMBDA only for the function of that name. *)
Definition plain (name : text) : bool := negb (head name =? 95).

Lemma shape_b :
  all_names (fun lang f name up =>
    is_ident name && plain name
    && Bool.eqb (text_eqb up (true_name lang)) (Nat.eqb f fn_true)
    && Bool.eqb (text_eqb up (false_name lang)) (Nat.eqb f fn_false)
    && Bool.eqb (text_eqb up t_LAMBDA) (Nat.eqb f fn_lambda)) = true.
Proof. vm_compute. reflexivity. Qed.

Lemma plain_trim name p : plain name = true -> head p = 95 -> trim_start_matches p name = name.
Proof.
  intro H. destruct p as [|a p]; [discriminate|]. cbn [head]. intros ->.
  destruct name as [|c s]; [reflexivity|]. apply negb_true_iff in H.
  unfold trim_start_matches. cbn [head length trim_start_fuel strip_prefix] in *.
  rewrite Z.eqb_sym, H. reflexivity.
Qed.

Lemma plain_neq name p : plain name = true -> head p = 95 -> text_eqb name p = false.
Proof.
  intro H. destruct p as [|a p]; [discriminate|]. cbn [head]. intros ->.
  destruct name as [|c s]; [reflexivity|]. apply negb_true_iff in H.
  cbn [head text_eqb] in *. rewrite H. reflexivity.
Qed.

Lemma bools_not_shadowed_b :
  forallb (fun lang => negb (known_shadowed lang fn_true || known_shadowed lang fn_false)) (seq 0 n_lang) = true.
Proof. vm_compute. reflexivity. Qed.

Section Name.
  Variables lang f : nat.
  Hypothesis Hl : (lang < n_lang)%nat.
  Hypothesis Hf : (f < n_fn)%nat.

  Lemma upper_table : upper (localized lang f) = localized_upper lang f.
  Proof.
    pose proof (all_names_spec _ upper_table_b lang f Hl Hf) as H. cbv beta in H. apply text_eqb_eq in H.
    destruct (forallb _ (localized lang f)) eqn:E in H; [rewrite (upper_low _ E)|]; exact H.
  Qed.

  (* the exact set of failures: a localized name parses back iff the function is not in the class *)
  Lemma functions_exact : lookup lang (localized lang f) = Some f <-> known_shadowed lang f = false.
  Proof.
    pose proof (all_names_spec _ lookup_names_b lang f Hl Hf) as H. cbv beta zeta in H.
    rewrite first_eq_ix_ok in H. apply eqb_prop in H.
    unfold lookup. rewrite upper_table, <- opt_is_true, H. apply negb_true_iff.
  Qed.

  Lemma functions_partial : known_shadowed lang f = false -> lookup lang (localized lang f) = Some f.
  Proof. apply functions_exact. Qed.

  Lemma name_shape :
    is_ident (localized lang f) = true /\ plain (localized lang f) = true /\
    text_eqb (localized_upper lang f) (true_name lang) = Nat.eqb f fn_true /\
    text_eqb (localized_upper lang f) (false_name lang) = Nat.eqb f fn_false /\
    text_eqb (localized_upper lang f) t_LAMBDA = Nat.eqb f fn_lambda.
  Proof.
    pose proof (all_names_spec _ shape_b lang f Hl Hf) as H. cbv beta in H.
    rewrite !andb_true_iff in H. destruct H as [[[[Hi Hp] Ht] Hfa] Hla].
    repeat split; try assumption; apply eqb_prop; assumption.
  Qed.

  Lemma bools_not_shadowed : known_shadowed lang fn_true = false /\ known_shadowed lang fn_false = false.
  Proof. apply orb_false_iff, negb_true_iff. exact (seq_forallb _ _ bools_not_shadowed_b lang Hl). Qed.

  (* LAMBDA is caught before the lookup (parse_lambda makes a LambdaDefKind of it, never a
     FunctionKind), and so are the boolean names, for which the lookup would give the same;
     everything else is the lookup *)
  Lemma call_names :
    call lang (localized lang f) =
    if Nat.eqb f fn_lambda then CLambda
    else match lookup lang (localized lang f) with Some g => CFn g | None => CNamed (localized lang f) end.
  Proof.
    destruct name_shape as (Hi & Hp & Ht & Hfa & Hla). unfold call, resolve.
    rewrite Hi, !(plain_trim _ _ Hp), !(plain_neq _ _ Hp), upper_table, Ht, Hfa, Hla by reflexivity.
    cbn [negb orb].
    destruct (Nat.eqb_spec f fn_true) as [E|_];
      [rewrite functions_partial, E by (rewrite E; apply bools_not_shadowed); reflexivity|].
    destruct (Nat.eqb_spec f fn_false) as [E|_];
      [rewrite functions_partial, E by (rewrite E; apply bools_not_shadowed); reflexivity|].
    destruct (Nat.eqb f fn_lambda); [reflexivity|].
    destruct (lookup lang (localized lang f)); reflexivity.
  Qed.

  Lemma call_partial : known_shadowed lang f = false ->
    call lang (localized lang f) = CFn f \/ (call lang (localized lang f) = CLambda /\ f = fn_lambda).
  Proof.
    intro S. rewrite call_names, (functions_partial S).
    destruct (Nat.eqb_spec f fn_lambda); [right; split; [reflexivity | assumption] | left; reflexivity].
  Qed.

  (* [call] returns the function itself exactly outside the class, LAMBDA apart *)
  Lemma call_exact : call lang (localized lang f) = CFn f <-> known_shadowed lang f = false /\ f <> fn_lambda.
  Proof.
    rewrite call_names, <- functions_exact.
    destruct (Nat.eqb_spec f fn_lambda) as [E|N]; [split; [discriminate | tauto]|].
    destruct (lookup lang (localized lang f)) as [g|]; split;
      [intros [= ->]; tauto | intros [[= ->] _]; reflexivity | discriminate | intros [[=] _]].
  Qed.
End Name.

(* the witness: the first entry of the class, found by name in the generated tables *)
Fixpoint index_of (k : text) (l : list text) : nat :=
  match l with [] => 0%nat | x :: tl => if text_eqb k x then 0%nat else S (index_of k tl) end.
Definition w_lang : nat := index_of [101; 115] languages.                 (* "es" *)
Definition w_fn : nat := index_of [88; 110; 112; 118] fn_variants.        (* Xnpv *)
Definition w_other : nat :=                                               (* the function its name parses to *)
  match lookup w_lang (localized w_lang w_fn) with Some g => g | None => 0%nat end.

Lemma functions_refuted :
  exists lang f, (lang < n_lang)%nat /\ (f < n_fn)%nat /\
    known_shadowed lang f = true /\ lookup lang (localized lang f) <> Some f.
Proof.
  assert ((w_lang < n_lang)%nat /\ (w_fn < n_fn)%nat /\ known_shadowed w_lang w_fn = true) as (Hl & Hf & S)
    by (vm_compute; repeat split; lia).
  exists w_lang, w_fn. refine (conj Hl (conj Hf (conj S _))).
  intro E. apply (functions_exact _ _ Hl Hf) in E. congruence.
Qed.

(* ---------- no two functions share a name ---------- *)
(* two names with the same upper-casing are looked up alike *)
Lemma no_shared_name_partial lang f g : (lang < n_lang)%nat -> (f < n_fn)%nat -> (g < n_fn)%nat ->
  known_shadowed lang f = false -> known_shadowed lang g = false ->
  upper (localized lang f) = upper (localized lang g) -> f = g.
Proof.
  intros Hl Hf Hg Sf Sg E. enough (Some f = Some g) as [= ->]; [reflexivity|].
  rewrite <- (functions_partial lang f Hl Hf Sf), <- (functions_partial lang g Hl Hg Sg).
  unfold lookup. rewrite E. reflexivity.
Qed.

Lemma no_shared_name_refuted :
  exists lang f g, (lang < n_lang)%nat /\ (f < n_fn)%nat /\ (g < n_fn)%nat /\ f <> g /\
    localized lang f = localized lang g.
Proof. exists w_lang, w_fn, w_other. vm_compute. repeat split; lia. Qed.

(* ---------- xlsx names (English tables = language 0) ---------- *)
Lemma en_is_first : nth 0 languages [] = [101; 110].
Proof. reflexivity. Qed.

Lemma en_lookup f : (f < n_fn)%nat -> lookup 0 (localized 0 f) = Some f.
Proof. intro Hf. apply functions_partial; [apply sizes | exact Hf | reflexivity]. Qed.

Definition call_is (r : call_result) (f : nat) : bool :=
  match r with
  | CFn g => Nat.eqb g f
  | CLambda => Nat.eqb f fn_lambda
  | _ => false
  end.
Lemma call_is_true r f : call_is r f = true -> r = CFn f \/ (r = CLambda /\ f = fn_lambda).
Proof.
  destruct r; cbn [call_is]; intro H; try discriminate.
  - left. apply Nat.eqb_eq in H. congruence.
  - right. apply Nat.eqb_eq in H. split; [reflexivity|exact H].
Qed.

(* an xlsx name is the English name, bare or behind "_xlfn." / "_xlfn._xlws."; only the prefixed
   ones are run through the parser's two lookups and the call path *)
Lemma xlsx_b :
  rows (fun f x name => text_eqb (strip_prefixes x) name
                        && (text_eqb x name || opt_is (resolve 0 x) f && call_is (call 0 x) f))
       0 n_fn xlsx_names (nth 0 fn_names []) = true.
Proof. vm_compute. reflexivity. Qed.

Lemma xlsx_names_ok f : (f < n_fn)%nat ->
  strip_prefixes (xlsx_name f) = localized 0 f /\
  (xlsx_name f = localized 0 f \/ resolve 0 (xlsx_name f) = Some f /\ call_is (call 0 (xlsx_name f)) f = true).
Proof.
  intro Hf. pose proof (rows_nth _ _ _ _ _ xlsx_b f Hf) as H. cbv beta in H.
  apply andb_true_iff in H as [H1 H2]. split; [apply text_eqb_eq, H1|].
  apply orb_true_iff in H2 as [H2|H2]; [left; apply text_eqb_eq, H2 | right].
  apply andb_true_iff in H2 as [H2 H3]. split; [apply opt_is_true, H2 | exact H3].
Qed.

Lemma xlsx_strip f : (f < n_fn)%nat -> lookup 0 (strip_prefixes (xlsx_name f)) = Some f.
Proof. intro Hf. rewrite (proj1 (xlsx_names_ok f Hf)). exact (en_lookup f Hf). Qed.

Lemma xlsx_resolve f : (f < n_fn)%nat -> resolve 0 (xlsx_name f) = Some f.
Proof.
  intro Hf. destruct (xlsx_names_ok f Hf) as [_ [E|[R _]]]; [|exact R].
  destruct (name_shape 0 f (proj1 sizes) Hf) as (_ & Hp & _).
  rewrite E. unfold resolve. rewrite !(plain_trim _ _ Hp), (en_lookup f Hf) by reflexivity. reflexivity.
Qed.

Lemma call_xlsx f : (f < n_fn)%nat ->
  call 0 (xlsx_name f) = CFn f \/ (call 0 (xlsx_name f) = CLambda /\ f = fn_lambda).
Proof.
  intro Hf. destruct (xlsx_names_ok f Hf) as [_ [E|[_ C]]]; [|exact (call_is_true _ _ C)].
  rewrite E. apply call_partial; [apply sizes | exact Hf | reflexivity].
Qed.

(* ---------- errors: the lexer's prefix cascade, for an arbitrary continuation ---------- *)
Lemma strip_prefix_app n r : strip_prefix n (n ++ r) = Some r.
Proof.
  induction n as [|a n IH]; cbn [strip_prefix app]; [reflexivity|].
  rewrite Z.eqb_refl. exact IH.
Qed.

(* a name that is a prefix of  n ++ r  is a prefix of n, or n is a prefix of it *)
Lemma prefix_of_app a n r : is_prefix a (n ++ r) = true -> is_prefix a n = true \/ is_prefix n a = true.
Proof.
  unfold is_prefix. revert n. induction a as [|x a IH]; intros [|y n] H; auto.
  cbn [app strip_prefix] in *. destruct (Z.eqb_spec x y) as [<-|]; [|discriminate H].
  rewrite Z.eqb_refl. exact (IH n H).
Qed.

Fixpoint clash_free (tbl : list (nat * text)) : bool :=
  match tbl with
  | [] => true
  | p :: tl => forallb (fun q => negb (is_prefix (snd p) (snd q)) && negb (is_prefix (snd q) (snd p))) tl
               && clash_free tl
  end.

Lemma first_prefix_hit tbl : clash_free tbl = true ->
  forall e n r, In (e, n) tbl -> first_prefix tbl (n ++ r) = Some (e, r).
Proof.
  induction tbl as [|[e0 n0] tl IH]; intros Hc e n r Hin; [destruct Hin|].
  cbn [clash_free] in Hc. apply andb_true_iff in Hc as [Hh Ht].
  cbn [first_prefix]. destruct Hin as [Heq|Hin].
  - inversion Heq; subst. rewrite strip_prefix_app. reflexivity.
  - rewrite forallb_forall in Hh. specialize (Hh _ Hin). cbn [snd] in Hh.
    apply andb_true_iff in Hh as [H1%negb_true_iff H2%negb_true_iff].
    destruct (strip_prefix n0 (n ++ r)) as [x|] eqn:Es.
    + exfalso. assert (Hp : is_prefix n0 (n ++ r) = true) by (unfold is_prefix; rewrite Es; reflexivity).
      apply prefix_of_app in Hp as [Hp|Hp]; congruence.
    + apply IH; assumption.
Qed.

Definition err_lang_ok (lang : nat) : bool :=
  clash_free (err_tbl lang lex_cascade) &&
  forallb (fun e => (head (error_name lang e) =? 35) && existsb (Nat.eqb e) lex_cascade) (seq 0 n_err).

Lemma err_lang_ok_b : forallb err_lang_ok (seq 0 n_lang) = true.
Proof. vm_compute. reflexivity. Qed.

Lemma lex_error_roundtrip lang e rest : (lang < n_lang)%nat -> (e < n_err)%nat ->
  lex_error lang (error_name lang e ++ rest) = Some (e, rest).
Proof.
  intros Hl He. pose proof (seq_forallb _ _ err_lang_ok_b lang Hl) as H.
  unfold err_lang_ok in H. apply andb_true_iff in H as [Hc Hall].
  pose proof (seq_forallb _ _ Hall e He) as H. cbv beta in H.
  apply andb_true_iff in H as [Hh Hin].
  unfold lex_error. destruct (error_name lang e) as [|c n] eqn:En; [discriminate Hh|].
  cbn [head] in Hh. cbn [app]. rewrite Hh.
  change (c :: n ++ rest) with ((c :: n) ++ rest). rewrite <- En.
  apply first_prefix_hit; [exact Hc|].
  unfold err_tbl. apply in_map_iff. exists e. split; [reflexivity|].
  apply existsb_exists in Hin as [x [Hx Hex]]. apply Nat.eqb_eq in Hex. subst x. exact Hx.
Qed.

(* get_error_by_name on the upper-cased text (what set_user_input does with a typed value) *)
Lemma error_by_name_b :
  forallb (fun lang => forallb (fun e => opt_is (error_by_name lang (upper (error_name lang e))) e
                                         && opt_is (error_by_name lang (error_name lang e)) e) (seq 0 n_err))
          (seq 0 n_lang) = true.
Proof. vm_compute. reflexivity. Qed.
Lemma error_by_name_roundtrip lang e : (lang < n_lang)%nat -> (e < n_err)%nat ->
  error_by_name lang (upper (error_name lang e)) = Some e /\ error_by_name lang (error_name lang e) = Some e.
Proof.
  intros Hl He.
  pose proof (seq_forallb _ _ (seq_forallb _ _ error_by_name_b lang Hl) e He) as H.
  cbv beta in H. apply andb_true_iff in H as [H1 H2]. split; apply opt_is_true; assumption.
Qed.

(* ---------- errors: the xlsx (English) form ---------- *)
Lemma err_variants_order :
  err_variants = [ [82; 69; 70]; [78; 65; 77; 69]; [86; 65; 76; 85; 69]; [68; 73; 86]; [78; 65]; [78; 85; 77];
                   [69; 82; 82; 79; 82]; [78; 73; 77; 80; 76]; [83; 80; 73; 76; 76]; [67; 65; 76; 67];
                   [67; 73; 82; 67]; [78; 85; 76; 76] ].
Proof. reflexivity. Qed.

(* every error: Display (what stringify and the xlsx writer print) is read back by
   get_error_by_english_name — 12 of 12 since /repo 4a681a0 (Error::NIMPL displays as #N/IMPL!);
   the English language names (what the file format expects) all read back too *)
Lemma english_lookup_b :
  forallb (fun e => opt_is (english_lookup (display e)) e && opt_is (english_lookup (error_name 0 e)) e)
          (seq 0 n_err) = true.
Proof. vm_compute. reflexivity. Qed.

Lemma display_all e : (e < n_err)%nat -> english_lookup (display e) = Some e.
Proof. intro He. apply opt_is_true. exact (proj1 (andb_prop _ _ (seq_forallb _ _ english_lookup_b e He))). Qed.
Lemma english_names e : (e < n_err)%nat -> english_lookup (error_name 0 e) = Some e.
Proof. intro He. apply opt_is_true. exact (proj2 (andb_prop _ _ (seq_forallb _ _ english_lookup_b e He))). Qed.

(* ---------- error literals printed inside formulas ---------- *)
Lemma strip_prefix_some p : forall s r, strip_prefix p s = Some r -> s = p ++ r.
Proof.
  induction p as [|a p IH]; cbn [strip_prefix app]; intros s r H; [congruence|].
  destruct s as [|b s]; [discriminate|]. destruct (Z.eqb_spec a b) as [->|]; [|discriminate].
  f_equal. exact (IH _ _ H).
Qed.

(* what the lexer reads as an error begins with that error's name, whatever the tables hold *)
Lemma lex_error_sound lang s e r : lex_error lang s = Some (e, r) -> s = error_name lang e ++ r.
Proof.
  unfold lex_error, err_tbl. destruct s as [|c s]; [discriminate|]. destruct (c =? 35); [|discriminate].
  generalize (c :: s) as t. induction lex_cascade as [|e0 tl IH]; cbn [map first_prefix]; intros t H; [discriminate|].
  destruct (strip_prefix (error_name lang e0) t) as [x|] eqn:Es; [|exact (IH _ H)].
  injection H as <- <-. exact (strip_prefix_some _ _ _ Es).
Qed.

(* the printed literal is read back by the same language exactly when the language's name of the
   error IS the Display form *)
Lemma literal_exact lang e : (lang < n_lang)%nat -> (e < n_err)%nat ->
  (lex_error lang (print_error_literal lang e) = Some (e, []) <-> error_name lang e = display e).
Proof.
  intros Hl He. unfold print_error_literal. split.
  - intros H%lex_error_sound. rewrite app_nil_r in H. congruence.
  - intros <-. rewrite <- (app_nil_r (error_name lang e)) at 1. exact (lex_error_roundtrip lang e [] Hl He).
Qed.

(* witness: Spanish (w_lang) and Error::REF: "#REF!" is not a Spanish error name *)
Lemma literal_refuted :
  (w_lang < n_lang)%nat /\ error_name w_lang E_REF = [35; 161; 82; 69; 70; 33] /\
  print_error_literal w_lang E_REF = [35; 82; 69; 70; 33] /\
  lex_error w_lang (print_error_literal w_lang E_REF) = None.
Proof. vm_compute. repeat split; try reflexivity; lia. Qed.
