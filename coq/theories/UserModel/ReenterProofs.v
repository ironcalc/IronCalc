(* UserModel/ReenterProofs.v — re-entering the displayed content *)
From IronCalc Require Import Base.Prelude Base.Dec Num.Recognise UserModel.Reenter Generated.Locales_c19.

(* quote-prefixed text: whatever the text looks like, it comes back as the same quoted text *)
Lemma reenter_quoted L G old s f :
  let c := {| c_val := VText s; c_qp := true; c_fmt := f |} in
  apply_input L G old (display G [] c) = {| c_val := VText s; c_qp := true; c_fmt := c_fmt old |}.
Proof.
  cbv zeta. unfold display. cbn [c_val c_qp localized_text].
  unfold apply_input, user_input. rewrite Z.eqb_refl. reflexivity.
Qed.

(* the two classes at the end of the recogniser's chain: a text is what was typed, an error was
   found in the language's table *)
Lemma user_input_last L G v :
  match user_input L G v with
  | IText s => s = v
  | IError i => position (to_upper v) (g_errors G) 0 = Some i
  | _ => True
  end.
Proof.
  unfold user_input. destruct v as [|c r]; [exact I|].
  destruct (c =? c_quote); [exact I|].
  destruct (formula_without_prefix L (c :: r)); [exact I|].
  destruct (parse_formatted_number L (c :: r)); [exact I|].
  destruct (parse_bool (c :: r)); [exact I|].
  destruct (position (to_upper (c :: r)) (g_errors G) 0); reflexivity.
Qed.

(* a text cell produced by user input either carries the quote prefix or holds exactly what was
   typed, and what was typed is not recognised as anything else; recognition depends on the text,
   the locale and the language only, so typing the displayed content again reproduces the cell *)
Theorem strings_reenter L G old v oracle :
  let c := apply_input L G old v in
  is_text c = true -> apply_input L G c (display G oracle c) = c.
Proof.
  intro c. unfold c, apply_input. pose proof (user_input_last L G v) as Hv.
  destruct (user_input L G v) as [|s|b|r|b|i|s] eqn:E; try discriminate; intros _.
  - cbn [display c_val c_qp localized_text]. unfold user_input. rewrite Z.eqb_refl. reflexivity.
  - subst s. cbn [display c_val c_qp localized_text]. rewrite E. reflexivity.
Qed.

(* any cell whose displayed content is classified the same way again is reproduced *)
Definition same_class (a b : input_class) : bool :=
  match a, b with
  | IBool x, IBool y => Bool.eqb x y
  | IError i, IError j => i =? j
  | _, _ => false
  end.

Lemma position_ge s l : forall i j, position s l i = Some j -> i <= j < i + Z.of_nat (length l).
Proof.
  induction l as [|x l IH]; intros i j H; cbn [position] in H; [discriminate|].
  destruct (text_eqb x s).
  - inversion H; subst. cbn [length]. lia.
  - apply IH in H. cbn [length]. lia.
Qed.

Definition bool_ok (L : locale) (G : language) : bool :=
  match user_input L G (g_true G), user_input L G (g_false G) with
  | IBool true, IBool false => true
  | _, _ => false
  end.

Definition error_ok (L : locale) (G : language) (i : nat) : bool :=
  match user_input L G (nth i (g_errors G) []) with
  | IError j => j =? Z.of_nat i
  | _ => false
  end.
Definition errors_ok (L : locale) (G : language) : bool :=
  forallb (error_ok L G) (seq 0 (length (g_errors G))).

Theorem nontext_reenter L G old v oracle :
  let c := apply_input L G old v in
  (is_bool c = true -> bool_ok L G = true) ->
  (is_error c = true -> errors_ok L G = true) ->
  is_number c = false -> is_formula c = false -> is_empty_quoted c = false ->
  apply_input L G c (display G oracle c) = c.
Proof.
  intros c Hb He Hn Hf Heq.
  destruct (is_text c) eqn:Et; [apply strings_reenter; exact Et|].
  unfold c, apply_input in *. destruct (user_input L G v) as [|s|b|r|b|i|s] eqn:E;
    cbn [is_text is_number is_formula is_empty_quoted c_val c_qp] in *; try discriminate.
  - (* empty *) rewrite Heq. unfold display. cbn [c_val c_qp localized_text]. unfold user_input. reflexivity.
  - (* boolean *)
    specialize (Hb eq_refl). unfold bool_ok in Hb. cbn [display c_val c_qp localized_text].
    destruct b; destruct (user_input L G (g_true G)) as [| | | |[|]| |]; try discriminate;
      destruct (user_input L G (g_false G)) as [| | | |[|]| |]; try discriminate; reflexivity.
  - (* error *)
    specialize (He eq_refl). cbn [display c_val c_qp localized_text].
    assert (Hi : 0 <= i < Z.of_nat (length (g_errors G))).
    { pose proof (user_input_last L G v) as Hp. rewrite E in Hp. apply position_ge in Hp. lia. }
    unfold errors_ok in He. rewrite forallb_forall in He.
    specialize (He (Z.to_nat i)). unfold error_ok in He.
    assert (Hin : In (Z.to_nat i) (seq 0 (length (g_errors G)))) by (apply in_seq; lia).
    specialize (He Hin).
    destruct (user_input L G (nth (Z.to_nat i) (g_errors G) [])) as [| | | | |j|]; try discriminate.
    apply Z.eqb_eq in He. rewrite Z2Nat.id in He by lia. subst j. reflexivity.
Qed.
