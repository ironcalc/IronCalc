(* UserModel/SelectionProofs.v — the selection invariant of the UserModel model (C28).
   [inv]: the selected sheet index is inside the workbook, every sheet's view has its cell and
   both range corners on the grid and the cell inside the hull of the range, and the history
   stacks only hold well-formed sheet entries.  One preservation lemma per operation; the
   operations whose preservation FAILS on the current code are exactly those of the decidable
   classes [bad] of Selection.v (on_area_selecting, on_paste_styles; each refuted by a concrete
   history below). *)
From IronCalc Require Import Base.Prelude Base.Dec UserModel.Selection.

(* ------------------------------------------------------------------ the invariant *)

Definition view_ok (v : view) : Prop :=
  (1 <= v_row v <= LAST_ROW) /\ (1 <= v_col v <= LAST_COLUMN) /\
  (1 <= v_r1 v <= LAST_ROW) /\ (1 <= v_c1 v <= LAST_COLUMN) /\
  (1 <= v_r2 v <= LAST_ROW) /\ (1 <= v_c2 v <= LAST_COLUMN) /\
  (Z.min (v_r1 v) (v_r2 v) <= v_row v <= Z.max (v_r1 v) (v_r2 v)) /\
  (Z.min (v_c1 v) (v_c2 v) <= v_col v <= Z.max (v_c1 v) (v_c2 v)).

Definition sheet_ok (sh : sheet) : Prop := view_ok (sh_view sh).

Definition entry_ok (e : entry) : Prop :=
  match e with
  | ENewSheet idx _ => 1 <= idx
  | EDuplicate src new => 0 <= src /\ new = src + 1
  | _ => True
  end.

(* the statement of C28 on a state *)
Definition sel_ok (s : state) : Prop :=
  exists sh, get_sheet (sheets s) (sel s) = Some sh /\ view_ok (sh_view sh).

Definition winv (s : state) : Prop :=
  Forall sheet_ok (sheets s) /\ Forall entry_ok (undo_st s) /\ Forall entry_ok (redo_st s).
Definition inv (s : state) : Prop :=
  0 <= sel s < nsheets s /\ winv s.

Ltac b2p :=
  repeat match goal with
  | H : _ && _ = true |- _ => apply andb_true_iff in H; destruct H
  | H : _ && _ = false |- _ => apply andb_false_iff in H
  | H : _ || _ = true |- _ => apply orb_true_iff in H
  | H : _ || _ = false |- _ => apply orb_false_iff in H; destruct H
  | H : negb _ = true |- _ => apply negb_true_iff in H
  | H : negb _ = false |- _ => apply negb_false_iff in H
  | H : (_ <=? _) = true |- _ => apply Z.leb_le in H
  | H : (_ <=? _) = false |- _ => apply Z.leb_gt in H
  | H : (_ <? _) = true |- _ => apply Z.ltb_lt in H
  | H : (_ <? _) = false |- _ => apply Z.ltb_ge in H
  | H : (_ =? _) = true |- _ => apply Z.eqb_eq in H
  | H : (_ =? _) = false |- _ => apply Z.eqb_neq in H
  end.

(* the Boolean tests of the model as propositions *)
Lemma valid_row_iff r : valid_row r = true <-> 1 <= r <= LAST_ROW.
Proof. unfold valid_row. rewrite andb_true_iff, !Z.leb_le. reflexivity. Qed.
Lemma valid_col_iff c : valid_col c = true <-> 1 <= c <= LAST_COLUMN.
Proof. unfold valid_col. rewrite andb_true_iff, !Z.leb_le. reflexivity. Qed.
Lemma grid_iff r c : grid r c = true <-> 1 <= r <= LAST_ROW /\ 1 <= c <= LAST_COLUMN.
Proof. unfold grid. rewrite andb_true_iff, valid_row_iff, valid_col_iff. reflexivity. Qed.
Lemma hull_has_iff r1 c1 r2 c2 r c :
  hull_has r1 c1 r2 c2 r c = true <->
  Z.min r1 r2 <= r <= Z.max r1 r2 /\ Z.min c1 c2 <= c <= Z.max c1 c2.
Proof. unfold hull_has. rewrite !andb_true_iff, !Z.leb_le. tauto. Qed.

Lemma view_ok_b_iff v : view_ok_b v = true <-> view_ok v.
Proof.
  unfold view_ok_b. change (in_hull v) with (hull_has (v_r1 v) (v_c1 v) (v_r2 v) (v_c2 v) (v_row v) (v_col v)).
  rewrite !andb_true_iff, !grid_iff, hull_has_iff. unfold view_ok. tauto.
Qed.

(* ------------------------------------------------------------------ view-level operations *)

Definition vres_ok (r : vres) : Prop :=
  match r with VOk v | VErr v => view_ok v | VFuel => True end.

Lemma view_ok_cell v : view_ok v -> valid_row (v_row v) = true /\ valid_col (v_col v) = true.
Proof. rewrite valid_row_iff, valid_col_iff. unfold view_ok. tauto. Qed.

(* the three ways a view changes: to a single cell, ... *)
Lemma single_ok v r c t l : valid_row r = true -> valid_col c = true -> view_ok (single v r c t l).
Proof. rewrite valid_row_iff, valid_col_iff. unfold view_ok. cbn. lia. Qed.

Lemma v_set_cell_ok v r c v' : v_set_cell v r c = Ok v' -> view_ok v'.
Proof.
  unfold v_set_cell. destruct (valid_col c) eqn:Ec; [|discriminate].
  destruct (valid_row r) eqn:Er; [|discriminate].
  intros [= <-]. exact (single_ok v r c _ _ Er Ec).
Qed.

(* ... the second corner of the range moves (on_area_selecting, on_paste_styles), ... *)
Lemma move_corner_ok v r2 c2 :
  view_ok v -> grid r2 c2 = true -> hull_has (v_r1 v) (v_c1 v) r2 c2 (v_row v) (v_col v) = true ->
  view_ok (with_range v (v_r1 v) (v_c1 v) r2 c2).
Proof. rewrite grid_iff, hull_has_iff. unfold view_ok. cbn. tauto. Qed.

(* ... or the range is replaced (set_selected_range).  One coordinate: the new range spans the
   whole line, or one of its corners is on the cell *)
Lemma hull_test hi x a b :
  1 <= x <= hi -> (a =? 1) && (b =? hi) = true \/ negb (x =? a) && negb (x =? b) = false ->
  Z.min a b <= x <= Z.max a b.
Proof.
  intros Hx [H|H]; [b2p; lia|]. destruct (Z.eqb_spec x a), (Z.eqb_spec x b); try discriminate; lia.
Qed.

Lemma v_set_range_ok v r1 c1 r2 c2 v' : view_ok v -> v_set_range v r1 c1 r2 c2 = Ok v' -> view_ok v'.
Proof.
  intros (H1 & H2 & _). unfold v_set_range.
  destruct (valid_col c1) eqn:V1; [|discriminate]. destruct (valid_row r1) eqn:V2; [|discriminate].
  destruct (valid_col c2) eqn:V3; [|discriminate]. destruct (valid_row r2) eqn:V4; [|discriminate].
  apply valid_col_iff in V1, V3. apply valid_row_iff in V2, V4. cbn [negb].
  pose proof (hull_test _ _ r1 r2 H1) as Hr. pose proof (hull_test _ _ c1 c2 H2) as Hc.
  (* in each of the three branches every test that guards [Err] has failed *)
  destruct ((r1 =? 1) && _); [|destruct ((c1 =? 1) && _)];
    repeat match goal with |- (if ?t then Err else _) = _ -> _ => destruct t; [discriminate|] end;
    intros [= <-]; unfold view_ok; cbn; auto 15.
Qed.

Lemma v_set_top_left_ok v t l v' : view_ok v -> v_set_top_left v t l = Ok v' -> view_ok v'.
Proof.
  intros Hv. unfold v_set_top_left.
  destruct (negb (valid_col l)); [discriminate|]. destruct (negb (valid_row t)); [discriminate|].
  intros [= <-]. exact Hv.
Qed.

Lemma of_outcome_ok v o : view_ok v -> (forall v', o = Ok v' -> view_ok v') -> vres_ok (of_outcome v o).
Proof. intros Hv Ho. destruct o; cbn; auto. Qed.

Lemma finish_range_ok v r1 c1 r2 c2 : view_ok v -> vres_ok (finish_range v (v_set_range v r1 c1 r2 c2)).
Proof. intros Hv. apply of_outcome_ok; eauto using v_set_range_ok. Qed.

Lemma scroll_then_range_ok v b t l r1 c1 r2 c2 :
  view_ok v -> vres_ok (scroll_then_range v b t l r1 c1 r2 c2).
Proof.
  intros Hv. unfold scroll_then_range. destruct b; [|apply finish_range_ok; auto].
  destruct (v_set_top_left v t l) as [v1| |] eqn:E; cbn; auto.
  apply finish_range_ok. eapply v_set_top_left_ok; eauto.
Qed.

(* destruct every match of the goal *)
Ltac dall :=
  repeat match goal with
  | |- context [match ?x with _ => _ end] => destruct x eqn:?
  end.

(* the keyboard moves end in the old view or in a single cell whose new coordinate has passed
   [valid_row] / [valid_col] and whose other coordinate is the old one *)
Ltac single_cell Hv :=
  cbn [vres_ok]; auto; apply single_ok; auto; try apply (view_ok_cell _ Hv); b2p; auto.

Lemma arrow_view_ok g ww wh d v : view_ok v -> vres_ok (arrow_view g ww wh d v).
Proof. intros Hv. destruct d; unfold arrow_view; dall; single_cell Hv. Qed.

Lemma clamp_row_valid x : valid_row (clamp_row x) = true.
Proof.
  apply valid_row_iff. unfold clamp_row, LAST_ROW.
  destruct (Z.ltb_spec x 1); [lia|]. destruct (Z.ltb_spec 1048576 x); lia.
Qed.

Lemma page_down_view_ok g wh v : view_ok v -> vres_ok (page_down_view g wh v).
Proof. intros Hv. unfold page_down_view. dall; single_cell Hv. apply clamp_row_valid. Qed.

Lemma page_up_view_ok g wh v : view_ok v -> vres_ok (page_up_view g wh v).
Proof. intros Hv. unfold page_up_view. dall; single_cell Hv. apply clamp_row_valid. Qed.

Lemma nav_edge_view_ok g ww wh d v : view_ok v -> vres_ok (nav_edge_view g ww wh d v).
Proof. intros Hv. unfold nav_edge_view. dall; single_cell Hv. Qed.

Lemma expand_view_ok g ww wh k v : view_ok v -> vres_ok (expand_view g ww wh k v).
Proof.
  intros Hv. unfold expand_view. cbv zeta.
  destruct k; dall; cbn [vres_ok]; auto using finish_range_ok, scroll_then_range_ok.
Qed.

Lemma area_selecting_view_ok g ww wh tr tc v :
  view_ok v -> grid tr tc = true -> hull_has (v_r1 v) (v_c1 v) tr tc (v_row v) (v_col v) = true ->
  vres_ok (area_selecting_view g ww wh tr tc v).
Proof.
  intros Hv Hg Hh. unfold area_selecting_view. dall; cbn [vres_ok]; auto.
  exact (move_corner_ok v tr tc Hv Hg Hh).
Qed.

Lemma paste_view_ok h w v :
  view_ok v ->
  hull_has (v_r1 v) (v_c1 v) (Z.max (v_r2 v) (v_r1 v + h - 1)) (Z.max (v_c2 v) (v_c1 v + w - 1)) (v_row v) (v_col v) = true ->
  vres_ok (paste_view h w v).
Proof.
  intros Hv Hh. unfold paste_view. cbv zeta. destruct (_ && _ && _ && _) eqn:Ec; cbn [vres_ok]; auto.
  apply move_corner_ok; auto. unfold grid. b2p. auto using andb_true_intro.
Qed.

(* ------------------------------------------------------------------ lists *)

Lemma get_sheet_Some l i sh : get_sheet l i = Some sh -> 0 <= i < Z.of_nat (length l) /\ In sh l.
Proof.
  unfold get_sheet. destruct (Z.ltb_spec i 0); [discriminate|]. intro E. split.
  - assert (Z.to_nat i < length l)%nat by (apply nth_error_Some; congruence). lia.
  - eapply nth_error_In; eauto.
Qed.
Lemma get_sheet_None l i : get_sheet l i = None -> i < 0 \/ Z.of_nat (length l) <= i.
Proof.
  unfold get_sheet. destruct (Z.ltb_spec i 0); [lia|]. intro E. apply nth_error_None in E. lia.
Qed.
Lemma get_sheet_Forall (P : sheet -> Prop) l i sh : Forall P l -> get_sheet l i = Some sh -> P sh.
Proof. intros Hf E. apply get_sheet_Some in E as [_ Hin]. rewrite Forall_forall in Hf. auto. Qed.

Lemma length_set_nth {A} n (x : A) l : length (set_nth n x l) = length l.
Proof. revert n; induction l as [|a l IH]; intros [|n]; cbn [set_nth length]; auto. Qed.
Lemma Forall_set_nth {A} (P : A -> Prop) n x l : Forall P l -> P x -> Forall P (set_nth n x l).
Proof.
  revert n; induction l as [|a l IH]; intros [|n] Hl Hx; cbn [set_nth]; auto;
    inversion Hl; subst; constructor; auto.
Qed.
Lemma length_insert_at {A} n (x : A) l : length (insert_at n x l) = S (length l).
Proof. revert l; induction n as [|n IH]; intros [|a l]; cbn [insert_at length]; auto. Qed.
Lemma Forall_insert_at {A} (P : A -> Prop) n x l : Forall P l -> P x -> Forall P (insert_at n x l).
Proof.
  revert l; induction n as [|n IH]; intros [|a l] Hl Hx; cbn [insert_at]; auto.
  inversion Hl; subst; constructor; auto.
Qed.
Lemma length_remove_at {A} n (l : list A) : (n < length l)%nat -> S (length (remove_at n l)) = length l.
Proof.
  revert n; induction l as [|a l IH]; intros [|n] H; cbn [remove_at length] in *; try lia.
  rewrite IH; lia.
Qed.
Lemma Forall_remove_at {A} (P : A -> Prop) n l : Forall P l -> Forall P (remove_at n l).
Proof.
  revert n; induction l as [|a l IH]; intros [|n] Hl; cbn [remove_at]; auto;
    inversion Hl; subst; auto.
Qed.

(* ------------------------------------------------------------------ state updates *)

Lemma view0_ok : view_ok view0.
Proof. apply view_ok_b_iff. reflexivity. Qed.
Lemma new_sheet_rec_ok n : sheet_ok (new_sheet_rec n).
Proof. exact view0_ok. Qed.

Lemma set_name_ok sh n : sheet_ok sh -> sheet_ok (set_name sh n).
Proof. auto. Qed.
Lemma set_vis_ok sh b : sheet_ok sh -> sheet_ok (set_vis sh b).
Proof. auto. Qed.
Lemma set_geom_ok sh g : sheet_ok sh -> sheet_ok (set_geom sh g).
Proof. auto. Qed.
Lemma set_view_ok sh v : view_ok v -> sheet_ok (set_view sh v).
Proof. auto. Qed.

Lemma set_nth_sheet_ok l i sh sh' :
  get_sheet l i = Some sh -> sheet_ok sh' -> Forall sheet_ok l -> Forall sheet_ok (set_nth (Z.to_nat i) sh' l).
Proof. intros _ H1 H2. apply Forall_set_nth; auto. Qed.

Lemma winv_with_sheets s l : winv s -> Forall sheet_ok l -> winv (with_sheets s l).
Proof. unfold winv; cbn; tauto. Qed.
Lemma nsheets_push s e : nsheets (push s e) = nsheets s.
Proof. reflexivity. Qed.

(* [inv] looks at the sheets, the selected index and the two stacks; each update below touches one *)
Lemma inv_with_hist s u r : inv s -> Forall entry_ok u -> Forall entry_ok r -> inv (with_hist s u r).
Proof. intros [H1 (H2 & _)] Hu Hr. repeat split; auto; apply H1. Qed.
Lemma inv_push s e : inv s -> entry_ok e -> inv (push s e).
Proof. intros Hi He. apply inv_with_hist; auto. constructor; [exact He | apply Hi]. Qed.
(* only NewSheet and DuplicateSheet entries carry a condition *)
#[local] Hint Extern 1 (entry_ok _) => exact I : core.

(* what every function on the sheet list guarantees: [l'] has [d] more sheets than [l], and
   valid views if [l] has *)
Definition resized (d : Z) (l l' : list sheet) : Prop :=
  Z.of_nat (length l') = Z.of_nat (length l) + d /\ (Forall sheet_ok l -> Forall sheet_ok l').

Lemma inv_resized s d l i :
  winv s -> resized d (sheets s) l -> 0 <= i < Z.of_nat (length (sheets s)) + d ->
  inv (with_sel (with_sheets s l) i).
Proof.
  intros Hw [Hl Hf] Hi. split; [unfold nsheets; cbn; lia | apply winv_with_sheets, Hf, Hw; exact Hw].
Qed.
(* ... with the selected index unchanged *)
Lemma inv_same_length s l : inv s -> resized 0 (sheets s) l -> inv (with_sheets s l).
Proof. intros [Hs Hw] Hl. apply (inv_resized s 0 l (sel s)); auto. unfold nsheets in Hs. lia. Qed.

Lemma inv_put_sheet s i sh : inv s -> sheet_ok sh -> inv (put_sheet s i sh).
Proof.
  intros Hi Hs. apply inv_same_length; auto. split; [rewrite length_set_nth; lia|].
  intro Hl. apply Forall_set_nth; auto.
Qed.

Lemma sheet_ok_in s sh i : inv s -> get_sheet (sheets s) i = Some sh -> sheet_ok sh.
Proof. intros [_ [Hf _]]. apply get_sheet_Forall, Hf. Qed.

Lemma inv_sel_ok s : inv s -> sel_ok s.
Proof.
  intros Hi. unfold sel_ok. destruct (get_sheet (sheets s) (sel s)) as [sh|] eqn:E.
  - exists sh. split; [reflexivity | exact (sheet_ok_in s sh _ Hi E)].
  - apply get_sheet_None in E. destruct Hi as [Hs _]. unfold nsheets in Hs. lia.
Qed.

(* set_selected_sheet takes the new index if it is in range; otherwise the old one stays, and
   has to be in range itself *)
Lemma select_inv s i :
  winv s -> 0 <= i < nsheets s \/ 0 <= sel s < nsheets s -> inv (state_of (set_selected_sheet s i)).
Proof.
  intros Hw Hr. unfold set_selected_sheet. destruct (get_sheet (sheets s) i) as [sh|] eqn:E; cbn [state_of].
  - apply get_sheet_Some in E as [Hi _]. split; [exact Hi | exact Hw].
  - apply get_sheet_None in E. split; [unfold nsheets in *; lia | exact Hw].
Qed.
(* ... in particular after the sheet list has been replaced *)
Lemma reselect_inv s d l i :
  winv s -> resized d (sheets s) l ->
  0 <= i < Z.of_nat (length (sheets s)) + d \/ 0 <= sel s < Z.of_nat (length (sheets s)) + d ->
  inv (state_of (set_selected_sheet (with_sheets s l) i)).
Proof.
  intros Hw [Hl Hf] Hr. apply select_inv; [apply winv_with_sheets, Hf, Hw; exact Hw | unfold nsheets; cbn; lia].
Qed.

(* ------------------------------------------------------------------ Model-level sheet functions:
   the indices they accept and how they resize the list *)

Lemma m_delete_sheet_ok l idx l' :
  m_delete_sheet l idx = Ok l' ->
  0 <= idx < Z.of_nat (length l) /\ 2 <= Z.of_nat (length l) /\ resized (-1) l l'.
Proof.
  unfold m_delete_sheet. destruct (Z.eqb_spec (Z.of_nat (length l)) 1); [discriminate|].
  destruct ((idx <? 0) || (Z.of_nat (length l) <=? idx)) eqn:E; [discriminate|]. b2p. intros [= <-].
  pose proof (length_remove_at (Z.to_nat idx) l ltac:(lia)). repeat split; try lia. apply Forall_remove_at.
Qed.

Lemma m_insert_sheet_ok l n idx l' :
  m_insert_sheet l n idx = Ok l' -> 0 <= idx <= Z.of_nat (length l) /\ resized 1 l l'.
Proof.
  unfold m_insert_sheet. destruct (negb (valid_sheet_name n)); [discriminate|].
  destruct (name_taken l n); [discriminate|].
  destruct ((idx <? 0) || (Z.of_nat (length l) <? idx)) eqn:E; [discriminate|]. b2p. intros [= <-].
  unfold resized. rewrite length_insert_at. repeat split; try lia.
  intro Hf. apply Forall_insert_at; auto. apply new_sheet_rec_ok.
Qed.

Lemma m_move_sheet_ok l i j l' :
  m_move_sheet l i j = Ok l' ->
  0 <= i < Z.of_nat (length l) /\ 0 <= j < Z.of_nat (length l) /\ resized 0 l l'.
Proof.
  unfold m_move_sheet.
  destruct ((i <? 0) || (Z.of_nat (length l) <=? i)) eqn:E1; [discriminate|].
  destruct ((j <? 0) || (Z.of_nat (length l) <=? j)) eqn:E2; [discriminate|]. b2p.
  destruct (i =? j); [intros [= <-]; repeat split; auto; lia|].
  destruct (nth_error l (Z.to_nat i)) as [sh|] eqn:E; [|discriminate]. intros [= <-].
  unfold resized. rewrite length_insert_at. pose proof (length_remove_at (Z.to_nat i) l ltac:(lia)).
  repeat split; try lia. intro Hf. apply Forall_insert_at; [apply Forall_remove_at; auto|].
  rewrite Forall_forall in Hf. apply Hf. eapply nth_error_In; eauto.
Qed.

(* m_rename and m_set_state end in the same replacement of one sheet *)
Lemma update_sheet_ok l idx (f : sheet -> sheet) l' :
  (forall sh, sheet_ok sh -> sheet_ok (f sh)) ->
  match get_sheet l idx with Some sh => Ok (set_nth (Z.to_nat idx) (f sh) l) | None => Err end = Ok l' ->
  resized 0 l l'.
Proof.
  intros Hf. destruct (get_sheet l idx) as [sh|] eqn:E; [|discriminate]. intros [= <-].
  split; [rewrite length_set_nth; lia|]. intro Hl. apply Forall_set_nth; auto.
  apply Hf. exact (get_sheet_Forall _ _ _ _ Hl E).
Qed.

Lemma m_rename_ok l idx n l' : m_rename l idx n = Ok l' -> resized 0 l l'.
Proof.
  unfold m_rename. destruct (negb (valid_sheet_name n)); [discriminate|].
  destruct (index_of_name l n 0) as [j|]; [destruct (negb (j =? idx)); [discriminate|]|];
    apply update_sheet_ok; intros sh; apply set_name_ok.
Qed.

Lemma m_set_state_ok l idx b l' : m_set_state l idx b = Ok l' -> resized 0 l l'.
Proof. apply update_sheet_ok. intros sh. apply set_vis_ok. Qed.

Lemma m_duplicate_ok l src l' :
  m_duplicate l src = DDone l' -> 0 <= src < Z.of_nat (length l) /\ resized 1 l l'.
Proof.
  unfold m_duplicate. destruct (get_sheet l src) as [sh|] eqn:E; [|discriminate].
  destruct (dup_name l (sh_name sh) (S (length l)) 1) as [n|]; [|discriminate]. intros [= <-].
  unfold resized. rewrite length_insert_at. split; [apply (get_sheet_Some _ _ _ E)|]. split; [lia|].
  intro Hf. apply Forall_insert_at; auto. apply set_name_ok. exact (get_sheet_Forall _ _ _ _ Hf E).
Qed.

Lemma after_move_range n selected from to :
  0 <= selected < n -> 0 <= from < n -> 0 <= to < n -> 0 <= after_move selected from to < n.
Proof.
  intros H1 H2 H3. unfold after_move.
  destruct (Z.eqb_spec selected from); [lia|].
  destruct (Z.ltb_spec from selected);
    match goal with |- context [if ?a <=? ?b then _ else _] => destruct (Z.leb_spec a b) end; lia.
Qed.

Lemma next_visible_sheet_range l i count fuel index k :
  next_visible_sheet l i count fuel index = Some k -> 0 <= k < Z.of_nat (length l).
Proof.
  revert index; induction fuel as [|f IH]; intros index; cbn [next_visible_sheet]; [discriminate|].
  destruct (count <=? index); [discriminate|].
  destruct (get_sheet l (((i + index) mod 4294967296) mod count)) as [sh|] eqn:E; [|discriminate].
  destruct (sh_vis sh); [|apply IH]. intros [= <-]. apply (get_sheet_Some _ _ _ E).
Qed.

(* ------------------------------------------------------------------ sheet operations *)

Lemma lift_inv s o k :
  inv s -> (forall l, o = Ok l -> inv (state_of (k (with_sheets s l)))) -> inv (state_of (lift s o k)).
Proof. intros Hi Hk. unfold lift. destruct o; cbn [state_of]; auto. Qed.

Lemma set_selected_sheet_inv s i : inv s -> inv (state_of (set_selected_sheet s i)).
Proof. intros [H1 H2]. apply select_inv; auto. Qed.

Lemma new_sheet_inv s : inv s -> inv (state_of (new_sheet s)).
Proof.
  intros [Hs Hw]. unfold new_sheet. destruct (new_name _ _ _) as [n|]; cbn [state_of]; [|split; auto].
  unfold nsheets in Hs. cbv zeta. rewrite app_length. cbn [length].
  apply inv_push; [apply (inv_resized s 1) | cbn; lia]; auto; [|lia].
  split; [rewrite app_length; cbn [length]; lia|]. intro Hl. apply Forall_app; split; auto.
  constructor; [apply new_sheet_rec_ok | constructor].
Qed.

Lemma duplicate_sheet_inv s i : inv s -> inv (state_of (duplicate_sheet s i)).
Proof.
  intros Hi. unfold duplicate_sheet. destruct (m_duplicate (sheets s) i) as [l| |] eqn:E; cbn [state_of]; auto.
  apply m_duplicate_ok in E as (Hr & Hl).
  apply inv_push; [apply (inv_resized s 1); auto; [apply Hi | lia] | cbn; lia].
Qed.

Lemma delete_sheet_inv s i : inv s -> inv (state_of (delete_sheet s i)).
Proof.
  intros Hi. unfold delete_sheet. destruct (get_sheet (sheets s) i) as [sh|]; cbn [state_of]; auto.
  cbv zeta. destruct (m_delete_sheet (sheets s) i) as [l| |] eqn:Ed; cbn [state_of]; auto.
  apply m_delete_sheet_ok in Ed as (Hd1 & Hd0 & Hd). destruct Hi as [Hs Hw]. unfold nsheets in *.
  set (e := EDeleteSheet _ _ _ _).
  assert (Hk : forall k, 0 <= k < Z.of_nat (length (sheets s)) - 1 -> inv (with_sel (push (with_sheets s l) e) k)).
  { intros k Hk. apply (inv_push (with_sel (with_sheets s l) k)); auto. apply (inv_resized s (-1)); auto. }
  destruct ((i =? _) && _) eqn:Ec; [|destruct ((_ <=? _) && _) eqn:Ec2]; cbn [state_of].
  - apply Hk. b2p. lia.
  - apply Hk. b2p. lia.
  - apply (Hk (sel s)). b2p. destruct Ec as [Ec|Ec], Ec2 as [Ec2|Ec2]; b2p; lia.
Qed.

(* m_rename on the sheets of [s], as rename_sheet and undo / redo of RenameSheet do *)
Lemma rename_lift_inv s i n : inv s -> inv (state_of (lift s (m_rename (sheets s) i n) ROk)).
Proof. intros Hi. apply lift_inv; auto. intros l E. apply inv_same_length, (m_rename_ok _ _ _ _ E); auto. Qed.

Lemma rename_sheet_inv s i n : inv s -> inv (state_of (rename_sheet s i n)).
Proof.
  intros Hi. pose proof (rename_lift_inv s i n Hi) as H. unfold rename_sheet, lift in *.
  dall; cbn [state_of] in *; auto using inv_push.
Qed.

(* m_move_sheet followed by the re-selection of common.rs, as move_sheet and undo / redo of MoveSheet do *)
Lemma move_lift_inv s i j :
  inv s -> inv (state_of (lift s (m_move_sheet (sheets s) i j) (fun s1 => set_selected_sheet s1 (after_move (sel s) i j)))).
Proof.
  intros Hi. apply lift_inv; auto. intros l E. apply m_move_sheet_ok in E as (Hi' & Hj & Hl).
  destruct Hi as [Hs Hw]. apply (reselect_inv s 0); auto. left. rewrite Z.add_0_r. apply after_move_range; assumption.
Qed.

Lemma move_sheet_inv s i j : inv s -> inv (state_of (move_sheet s i j)).
Proof.
  intros Hi. pose proof (move_lift_inv s i j Hi) as H. unfold move_sheet, lift in *. cbv zeta.
  dall; cbn [state_of] in *; auto using inv_push.
Qed.

(* m_set_state on the sheets of [s], as hide_sheet and unhide_sheet (after the push) and undo / redo do *)
Lemma set_state_inv s i b : inv s -> inv (state_of (lift s (m_set_state (sheets s) i b) ROk)).
Proof.
  intros Hi. apply lift_inv; auto. intros l E. apply inv_same_length, (m_set_state_ok _ _ _ _ E); auto.
Qed.

Lemma hide_sheet_inv s i : inv s -> inv (state_of (hide_sheet s i)).
Proof.
  intros Hi. unfold hide_sheet.
  set (s1 := match next_visible_sheet _ _ _ _ _ with Some k => with_sel s k | None => s end).
  assert (H1 : inv s1).
  { subst s1. destruct (next_visible_sheet _ _ _ _ _) as [k|] eqn:E; auto.
    apply next_visible_sheet_range in E. split; [exact E | apply Hi]. }
  destruct (get_sheet (sheets s1) i) as [sh|]; cbn [state_of]; auto.
  apply (set_state_inv (push s1 _)), inv_push; auto.
Qed.

Lemma unhide_sheet_inv s i : inv s -> inv (state_of (unhide_sheet s i)).
Proof.
  intros Hi. unfold unhide_sheet. destruct (get_sheet (sheets s) i) as [sh|]; cbn [state_of]; auto.
  apply (set_state_inv (push s _)), inv_push; auto.
Qed.

Lemma set_sheet_color_inv s i : inv s -> inv (state_of (set_sheet_color s i)).
Proof.
  intros Hi. unfold set_sheet_color. destruct (get_sheet (sheets s) i); cbn [state_of]; auto using inv_push.
Qed.

(* ------------------------------------------------------------------ undo / redo *)

(* undo of NewSheet and DuplicateSheet, redo of DeleteSheet: the index selected afterwards is
   below the deleted one, or 0 *)
Lemma delete_select_inv s idx j :
  inv s -> 0 <= j <= Z.max 0 (idx - 1) ->
  inv (state_of (lift s (m_delete_sheet (sheets s) idx) (fun s1 => set_selected_sheet s1 j))).
Proof.
  intros Hi Hj. apply lift_inv; auto. intros l E. apply m_delete_sheet_ok in E as (H1 & H0 & Hl).
  apply (reselect_inv s (-1)); [apply Hi | exact Hl | lia].
Qed.

Lemma apply_lines_inv s shi f e : inv s -> inv (state_of (apply_lines s shi f e)).
Proof.
  intros Hi. unfold apply_lines. destruct e; cbn [state_of]; auto.
  destruct (get_sheet (sheets s) shi) as [sh|] eqn:E; cbn [state_of]; auto.
  destruct (f (sh_geom sh)); cbn [state_of]; auto.
  apply inv_put_sheet; auto. apply set_geom_ok. exact (sheet_ok_in s sh shi Hi E).
Qed.

Lemma apply_undo_inv s e : inv s -> entry_ok e -> inv (state_of (apply_undo s e)).
Proof.
  intros Hi He. pose proof Hi as [Hs Hw]. unfold nsheets in Hs.
  destruct e as [idx n|idx n vis g|src new|idx old new|from to|idx nv ov| |shi l|shi l|shi l|shi l];
    cbn [apply_undo]; auto using apply_lines_inv, set_state_inv, rename_lift_inv, move_lift_inv.
  - cbn in He. destruct (Z.ltb_spec 0 idx); [|lia]. apply delete_select_inv; auto. lia.
  - apply lift_inv; auto. intros l E. apply m_insert_sheet_ok in E as (H1 & Hl).
    cbn [sheets with_sheets].
    destruct (get_sheet l idx) as [sh|] eqn:Eg; cbn [state_of]; [|apply (inv_resized s 1 l (sel s)); auto; lia].
    apply (reselect_inv s 1); auto.
    + destruct Hl as [Hl Hf]. split; [rewrite length_set_nth; exact Hl|]. intro H. specialize (Hf H).
      apply Forall_set_nth; auto. apply set_vis_ok, set_geom_ok. exact (get_sheet_Forall _ _ _ _ Hf Eg).
    + left. destruct Hl as [Hl _]. apply get_sheet_Some in Eg. lia.
  - destruct He as [He ->]. destruct (get_sheet (sheets s) (src + 1)); cbn [state_of]; auto.
    apply delete_select_inv; auto. lia.
Qed.

Lemma apply_redo_inv s e : inv s -> entry_ok e -> inv (state_of (apply_redo s e)).
Proof.
  intros Hi He. pose proof Hi as [Hs Hw]. unfold nsheets in Hs.
  destruct e as [idx n|idx n vis g|src new|idx old new|from to|idx nv ov| |shi l|shi l|shi l|shi l];
    cbn [apply_redo]; auto using apply_lines_inv, set_state_inv, rename_lift_inv, move_lift_inv.
  - apply lift_inv; auto. intros l E. apply m_insert_sheet_ok in E as (H1 & Hl).
    apply (reselect_inv s 1); auto. lia.
  - apply delete_select_inv; auto. lia.
  - destruct (m_duplicate (sheets s) src) as [l| |] eqn:E; cbn [state_of]; auto.
    apply m_duplicate_ok in E as (H1 & Hl). destruct He as [He ->].
    apply (reselect_inv s 1); auto. lia.
Qed.

Lemma undo_inv s : inv s -> inv (state_of (undo s)).
Proof.
  intros Hi. unfold undo. destruct (undo_st s) as [|e u] eqn:E; cbn [state_of]; auto.
  pose proof Hi as (_ & _ & Hu & Hr). rewrite E in Hu. inversion Hu; subst.
  apply apply_undo_inv; auto. apply inv_with_hist; auto.
Qed.

Lemma redo_inv s : inv s -> inv (state_of (redo s)).
Proof.
  intros Hi. unfold redo. destruct (redo_st s) as [|e r] eqn:E; cbn [state_of]; auto.
  pose proof Hi as (_ & _ & Hu & Hr). rewrite E in Hr. inversion Hr; subst.
  apply apply_redo_inv; auto. apply inv_with_hist; auto.
Qed.

(* ------------------------------------------------------------------ ui.rs at the state level *)

Lemma on_sel_view_inv s b f :
  inv s -> (forall sh, get_sheet (sheets s) (sel s) = Some sh -> sheet_ok sh -> vres_ok (f sh)) ->
  inv (state_of (on_sel_view s b f)).
Proof.
  intros Hi Hf. unfold on_sel_view.
  destruct (get_sheet (sheets s) (sel s)) as [sh|] eqn:E; [|destruct b; exact Hi].
  specialize (Hf sh eq_refl (sheet_ok_in s sh _ Hi E)).
  destruct (f sh) as [v|v|]; cbn [state_of]; auto; apply inv_put_sheet; auto.
Qed.

Lemma set_selected_cell_inv s r c : inv s -> inv (state_of (set_selected_cell s r c)).
Proof.
  intros Hi. apply on_sel_view_inv; auto. intros sh _ Hsh. apply of_outcome_ok; eauto using v_set_cell_ok.
Qed.
Lemma set_selected_range_inv s r1 c1 r2 c2 : inv s -> inv (state_of (set_selected_range s r1 c1 r2 c2)).
Proof.
  intros Hi. apply on_sel_view_inv; auto. intros sh _ Hsh. apply of_outcome_ok; eauto using v_set_range_ok.
Qed.
Lemma set_top_left_inv s t l : inv s -> inv (state_of (set_top_left s t l)).
Proof.
  intros Hi. apply on_sel_view_inv; auto. intros sh _ Hsh. apply of_outcome_ok; eauto using v_set_top_left_ok.
Qed.

(* the view-level premises of area selecting, from the negated class *)
Lemma area_selecting_inv s r c : inv s -> bad_area s r c = false ->
  inv (state_of (on_sel_view s true (fun sh => area_selecting_view (sh_geom sh) (win_w s) (win_h s) r c (sh_view sh)))).
Proof.
  intros Hi Hb. apply on_sel_view_inv; auto. intros sh E Hsh.
  unfold bad_area, sel_view in Hb. rewrite E in Hb. b2p. apply area_selecting_view_ok; auto.
Qed.

Lemma paste_styles_inv s h w : inv s -> bad_paste s h w = false -> inv (state_of (paste_styles s h w)).
Proof.
  intros Hi Hb. unfold paste_styles. unfold bad_paste, sel_view in Hb.
  destruct (h <? 1); cbn [state_of]; auto.
  destruct (get_sheet (sheets s) (sel s)) as [sh|] eqn:E; cbn [state_of]; auto.
  cbn [orb] in Hb. apply orb_false_iff in Hb as [-> Hb]. apply negb_false_iff in Hb.
  assert (Hv : vres_ok (paste_view h w (sh_view sh))) by (apply paste_view_ok; auto; exact (sheet_ok_in s sh _ Hi E)).
  destruct (paste_view h w (sh_view sh)) as [v|v|]; cbn [state_of]; auto.
  apply inv_put_sheet; auto. apply inv_push; auto.
Qed.

(* set_columns_hidden / set_rows_hidden / set_rows_height / set_columns_width: every state they
   can leave behind is [s] with the geometry, then the view, of sheet [shi] replaced, with or
   without a line entry pushed; the views come from the validated setters *)
Lemma set_lines_size_inv rows s shi a b x : inv s -> inv (state_of (set_lines_size rows s shi a b x)).
Proof.
  intros Hi. unfold set_lines_size.
  destruct (get_sheet (sheets s) shi) as [sh|] eqn:E; [pose proof (sheet_ok_in s sh shi Hi E)|];
    destruct rows; cbv iota; dall; cbn [state_of]; auto using inv_push, inv_put_sheet.
Qed.

Lemma set_lines_hidden_inv rows s shi a b hid : inv s -> inv (state_of (set_lines_hidden rows s shi a b hid)).
Proof.
  intros Hi. unfold set_lines_hidden.
  destruct (get_sheet (sheets s) shi) as [sh|] eqn:E; [pose proof (sheet_ok_in s sh shi Hi E)|];
    destruct rows; cbv iota zeta; dall; cbn [state_of];
    eauto 6 using inv_push, inv_put_sheet, set_view_ok, v_set_cell_ok, v_set_range_ok.
Qed.

(* ------------------------------------------------------------------ all operations *)

Theorem step_inv s o : inv s -> bad s o = false -> inv (step s o).
Proof.
  intros Hi Hb. unfold step.
  destruct o; cbn [step_r bad state_of] in *;
    auto using set_selected_sheet_inv, set_selected_cell_inv, set_selected_range_inv, set_top_left_inv,
      area_selecting_inv, new_sheet_inv, duplicate_sheet_inv, delete_sheet_inv, rename_sheet_inv, move_sheet_inv,
      hide_sheet_inv, unhide_sheet_inv, set_sheet_color_inv, set_lines_hidden_inv, set_lines_size_inv,
      paste_styles_inv, undo_inv, redo_inv;
    apply on_sel_view_inv; auto using expand_view_ok, arrow_view_ok, page_down_view_ok, page_up_view_ok, nav_edge_view_ok.
Qed.

Theorem run_inv ops : forall s, inv s -> avoids s ops = true -> inv (run s ops).
Proof.
  induction ops as [|o t IH]; intros s Hi Ha; cbn [run fold_left avoids] in *; auto.
  apply andb_true_iff in Ha as [Hb Ht]. apply negb_true_iff in Hb.
  apply IH; auto. apply step_inv; auto.
Qed.

Lemma mk_state_inv l : l <> [] -> Forall sheet_ok l -> inv (mk_state l).
Proof.
  intros Hn Hf. split; [|repeat split; cbn; auto].
  unfold nsheets; cbn. destruct l; [congruence|]. cbn [length]. lia.
Qed.

Lemma init_inv : inv init.
Proof. apply mk_state_inv; [discriminate|]. constructor; [apply new_sheet_rec_ok | constructor]. Qed.

Lemma sel_ok_b_iff s : sel_ok_b s = true <-> sel_ok s.
Proof.
  unfold sel_ok_b, sel_ok. destruct (get_sheet (sheets s) (sel s)) as [sh|].
  - rewrite view_ok_b_iff. split; [eauto | intros (? & [= <-] & Hv); exact Hv].
  - split; [discriminate | intros (? & [=] & _)].
Qed.

Lemma all_ok_b_inv s : inv s -> all_ok_b s = true.
Proof.
  intros [Hs (Hf & _)]. unfold all_ok_b. rewrite !andb_true_iff, Z.leb_le, Z.ltb_lt, forallb_forall.
  rewrite Forall_forall in Hf. repeat split; try apply Hs. intros sh Hin. apply view_ok_b_iff, Hf, Hin.
Qed.

(* ------------------------------------------------------------------ the property *)

(* along every history that avoids the known classes the invariant holds — for the
   selected sheet and for every other sheet *)
Theorem C28_partial_thm : forall ops, avoids init ops = true -> sel_ok (run init ops) /\ all_ok_b (run init ops) = true.
Proof.
  intros ops Ha. assert (Hi := run_inv ops init init_inv Ha). split; [apply inv_sel_ok | apply all_ok_b_inv]; auto.
Qed.

(* … and from any workbook (any number of sheets, any geometry, any valid views) *)
Theorem C28_partial_any_workbook : forall l ops,
  l <> [] -> Forall sheet_ok l -> avoids (mk_state l) ops = true -> sel_ok (run (mk_state l) ops).
Proof. intros l ops Hn Hf Ha. apply inv_sel_ok. apply run_inv; auto. apply mk_state_inv; auto. Qed.

(* the witnesses (each replayed on the implementation by harness/c28) *)
Definition w_area_offgrid : list op := [OAreaSel 0 (-5)].
Definition w_area_anchor : list op := [OSetCell 5 5; OSetRange 1 1 5 5; OAreaSel 2 2].
Definition w_paste : list op := [OSetRange 5 5 1 1; OPaste 1 1].

Lemma refute ops : sel_ok_b (run init ops) = false -> ~ sel_ok (run init ops).
Proof. intros H Hs. apply sel_ok_b_iff in Hs. congruence. Qed.

Theorem refuted_area_offgrid : ~ sel_ok (run init w_area_offgrid).
Proof. apply refute. vm_compute. reflexivity. Qed.
Theorem refuted_area_anchor : ~ sel_ok (run init w_area_anchor).
Proof. apply refute. vm_compute. reflexivity. Qed.
Theorem refuted_paste : ~ sel_ok (run init w_paste).
Proof. apply refute. vm_compute. reflexivity. Qed.

(* each witness meets exactly one class, at its last step (the classes are independent) *)
Definition only_last_bad (ops : list op) : bool :=
  avoids init (removelast ops) && bad (run init (removelast ops)) (last ops OUndo).
Lemma witnesses_tight : forallb only_last_bad [w_area_offgrid; w_area_anchor; w_paste] = true.
Proof. vm_compute. reflexivity. Qed.


(* the histories that refuted the property before the repairs of delete_sheet (422225e), redo of
   DeleteSheet (ccc73d8) and page down / up (0ee396a) now satisfy it and meet no class *)
Definition w_delete : list op := [ONewSheet; ONewSheet; ODelete 0].
Definition w_redo : list op := [ONewSheet; OSetSheet 0; ODelete 0; OUndo; OSetSheet 1; ORedo].
Definition w_page_down : list op := [OSetCell 1048576 1; OPageDown].
Definition w_page_up : list op := [OTopLeft 100 1; OPageUp].
Lemma repaired_witnesses :
  forallb (fun ops => avoids init ops && sel_ok_b (run init ops)) [w_delete; w_redo; w_page_down; w_page_up] = true.
Proof. vm_compute. reflexivity. Qed.

(* non-vacuity: a history through every kind of operation that avoids the classes *)
Definition nv_history : list op :=
  [ONewSheet; ONewSheet; OSetSheet 1; ODelete 0; OUndo; ORedo; OUndo; ODuplicate 1; OMove 0 2; OUndo; ORedo;
   OHide 1; OUnhide 1; ORename 0 [65]; OColor 0; OSetCell 10 4; OSetRange 10 4 20 8; OExpand KDown; OExpand KRight;
   OArrow DDown; OArrow DRight; OArrow DUp; OArrow DLeft; OPageDown; OPageUp; OAreaSel 30 6; OTopLeft 5 2;
   ORowsHidden 2 3 5 true; OColsHidden 2 2 3 true; ORowsHeight 2 7 8 40; OColsWidth 2 4 4 200; OPaste 2 2;
   OWinW 100; OWinH 50; ONavEdge DRight; OUndo; OUndo; ORedo; ODelete 2; OUndo; ODelete 1; ONewSheet; OUndo; ORedo].
Lemma nv_history_avoids : avoids init nv_history = true /\ length nv_history = 44%nat.
Proof. vm_compute. split; reflexivity. Qed.

(* ------------------------------------------------------------------ loops *)

Lemma loop_eq {A B} p (f : A -> lstep A B) a :
  loop p f a = match p with
               | xH => f a
               | xO q => match loop q f a with Continue a' => loop q f a' | r => r end
               | xI q => match f a with
                         | Continue a1 => match loop q f a1 with Continue a2 => loop q f a2 | r => r end
                         | r => r
                         end
               end.
Proof. destruct p; reflexivity. Qed.

(* an invariant [I n] of the loop state after [n] iterations: it holds with the whole fuel added
   if the fuel runs out, and [Q] holds of the result otherwise *)
Lemma loop_inv {A B} (I : Z -> A -> Prop) (Q : B -> Prop) (f : A -> lstep A B) :
  (forall n a, I n a -> match f a with Continue a' => I (n + 1) a' | Stop b => Q b end) ->
  forall p n a, I n a -> match loop p f a with Continue a' => I (n + Z.pos p) a' | Stop b => Q b end.
Proof.
  intros Hf. induction p as [q IH|q IH|]; intros n a Ha; rewrite loop_eq.
  - specialize (Hf n a Ha). destruct (f a) as [a1|b]; auto.
    pose proof (IH _ a1 Hf) as H1. destruct (loop q f a1) as [a2|b]; auto.
    replace (n + Z.pos q~1) with (n + 1 + Z.pos q + Z.pos q) by lia. exact (IH _ a2 H1).
  - pose proof (IH n a Ha) as H1. destruct (loop q f a) as [a2|b]; auto.
    replace (n + Z.pos q~0) with (n + Z.pos q + Z.pos q) by lia. exact (IH _ a2 H1).
  - apply Hf, Ha.
Qed.

(* ... for the loops that count a line number up or down, with an invariant that ignores [n] *)
Lemma lfinish_inv {A} (I : A -> Prop) (Q : Z -> Prop) (f : A -> lstep A lres) :
  (forall a, I a -> match f a with Continue a' => I a' | Stop (LDone x) => Q x | Stop _ => True end) ->
  forall p a x, I a -> lfinish (loop p f a) = LDone x -> Q x.
Proof.
  intros Hf p a x Ha E.
  pose proof (loop_inv (fun _ => I) (fun r => match r with LDone x => Q x | _ => True end) f (fun _ => Hf) p 0 a Ha) as H.
  destruct (loop p f a) as [a'|b]; cbn [lfinish] in E; [discriminate|]. subst b. exact H.
Qed.

Lemma grow_down_ge h win fuel last acc l : grow_down h win fuel last acc = LDone l -> last <= l.
Proof.
  apply (lfinish_inv (fun st => last <= fst st) (fun x => last <= x)); [|cbn; lia].
  intros [l0 a0] Hl. cbn in *. destruct (a0 <=? win); [destruct (h (l0 + 1))|]; cbn; auto; lia.
Qed.

Lemma grow_up_le h win fuel first acc l : grow_up h win fuel first acc = LDone l -> l <= first.
Proof.
  apply (lfinish_inv (fun st => fst st <= first) (fun x => x <= first)); [|cbn; lia].
  intros [l0 a0] Hl. cbn in *. destruct ((a0 <=? win) && (1 <? l0)); [destruct (h (l0 - 1))|]; cbn; auto; lia.
Qed.

(* ------------------------------------------------------------------ fuel *)

(* the scans over hidden lines: whatever is hidden, every step in direction [d] that passes the
   guard decreases the measure [m], which stays non-negative; so after [n] iterations it is at
   most [m c - n], the fuel cannot run out, and the scan itself never answers [LFuel] *)
Lemma scan_fuel hid guard d (m : Z -> Z) fuel c :
  (forall a, guard a = true -> 0 <= m (a + d) < m a) -> m c < Z.pos fuel ->
  scan hid guard d fuel c <> LFuel.
Proof.
  intros Hm Hc. unfold scan.
  pose proof (loop_inv (fun n a => m a <= m c - n /\ (n = 0 \/ 0 <= m a)) (fun r => r <> LFuel) (scan_step hid guard d)) as H.
  cbv beta in H. specialize (H ltac:(intros n a Ha; unfold scan_step; destruct (guard a) eqn:G; [destruct (hid a) as [[|]| |]|];
                      cbn; try discriminate; specialize (Hm a G); lia) fuel 0 c ltac:(lia)).
  destruct (loop fuel _ c) as [a'|b]; [lia | exact H].
Qed.

Lemma to_pos_ge x : x <= Z.pos (Z.to_pos x).
Proof. destruct x; cbn; lia. Qed.

Lemma scan_fuel_up hid limit c :
  scan hid (fun x => x <=? limit) 1 (fuel_to c limit) c <> LFuel /\
  scan hid (fun x => x <? limit) 1 (fuel_to c limit) c <> LFuel.
Proof.
  pose proof (to_pos_ge (limit + 2 - c)).
  split; apply (scan_fuel _ _ _ (fun x => limit + 1 - x)); unfold fuel_to; try lia; intros a G; b2p; lia.
Qed.

Lemma scan_fuel_down hid c :
  scan hid (fun x => 1 <=? x) (-1) (fuel_down c) c <> LFuel /\
  scan hid (fun x => 1 <? x) (-1) (fuel_down c) c <> LFuel.
Proof.
  pose proof (to_pos_ge (c + 1)).
  split; apply (scan_fuel _ _ _ (fun x => x)); unfold fuel_down; try lia; intros a G; b2p; lia.
Qed.
