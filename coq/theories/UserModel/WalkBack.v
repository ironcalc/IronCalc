(* UserModel/WalkBack.v — "repeated undo walks back through the whole history" (C01) and its
   mirror for redo (C02): after ANY valid history, k further undos put the workbook in the
   state k places before the cursor in the log, the log itself is untouched by undo and redo,
   its first entry is the initial state, so undoing [cursor] times restores the initial
   workbook exactly; k redos after that walk forward again through the same states. *)
From Coq Require Import List Lia PeanoNat.
Import ListNotations.
From IronCalc Require Import UserModel.History UserModel.HistoryProofs.

Section WalkBack.
  Variables St Df : Type.
  Variable apply unapply : Df -> St -> St.

  Notation run := (run St Df apply unapply).
  Notation valid := (valid St Df apply unapply).
  Notation init := (init St Df).
  Notation spec_step := (spec_step St Df).
  Notation spec_run := (spec_run St Df).
  Notation log := (log St).
  Notation cursor := (cursor St).

  (* only [Do] events carry a validity condition *)
  Lemma valid_moves m es : (forall s' dl, ~ In (Do s' dl) es) -> valid m es.
  Proof.
    revert m. induction es as [|e es IH]; intros m H; [exact I|]. split.
    - destruct e; auto. destruct (H s' dl). left. reflexivity.
    - apply IH. intros s' dl Hin. apply (H s' dl). right. exact Hin.
  Qed.

  (* undo and redo never change the log, they move the cursor by one (when they can) *)
  Lemma log_undo sp : log (spec_step sp Undo) = log sp.
  Proof.
    destruct sp as [bs c ars]. destruct bs as [|b bs]; [reflexivity|].
    unfold History.log. cbn. rewrite <- app_assoc. reflexivity.
  Qed.
  Lemma log_redo sp : log (spec_step sp Redo) = log sp.
  Proof.
    destruct sp as [bs c ars]. destruct ars as [|a ars]; [reflexivity|].
    unfold History.log. cbn. rewrite <- app_assoc. reflexivity.
  Qed.
  Lemma cursor_undo sp : cursor (spec_step sp Undo) = cursor sp - 1.
  Proof. destruct sp as [bs c ars]. destruct bs as [|b bs]; cbn; lia. Qed.
  Lemma cursor_in_log sp : cursor sp < length (log sp).
  Proof. unfold History.log, History.cursor. rewrite app_length, rev_length. cbn. lia. Qed.
  Lemma cursor_redo sp : cursor (spec_step sp Redo) = Nat.min (cursor sp + 1) (length (log sp) - 1).
  Proof.
    destruct sp as [bs c [|a ars]]; unfold History.log, History.cursor; cbn; rewrite app_length, rev_length; cbn; lia.
  Qed.

  Lemma undo_k k : forall sp, log (spec_run sp (repeat Undo k)) = log sp /\
                              cursor (spec_run sp (repeat Undo k)) = cursor sp - k.
  Proof.
    induction k as [|k IH]; intro sp; [cbn; split; [reflexivity|lia]|].
    cbn [repeat History.spec_run fold_left]. destruct (IH (spec_step sp Undo)) as [Hl Hc].
    unfold History.spec_run in *. rewrite Hl, Hc, log_undo, cursor_undo. split; [reflexivity|lia].
  Qed.

  Lemma redo_k k : forall sp,
    log (spec_run sp (repeat Redo k)) = log sp /\
    cursor (spec_run sp (repeat Redo k)) = Nat.min (cursor sp + k) (length (log sp) - 1).
  Proof.
    induction k as [|k IH]; intros sp; [pose proof (cursor_in_log sp); cbn; split; [reflexivity|lia]|].
    cbn [repeat History.spec_run fold_left]. destruct (IH (spec_step sp Redo)) as [Hl Hc].
    unfold History.spec_run in *. rewrite Hl, Hc, log_redo, cursor_redo. split; [reflexivity|lia].
  Qed.

  (* no event changes the first entry of the log, so a history from [s0] has [s0] there *)
  Lemma hd_step sp e d : hd d (log (spec_step sp e)) = hd d (log sp).
  Proof.
    destruct e as [s' dl| |]; [|rewrite log_undo; reflexivity|rewrite log_redo; reflexivity].
    destruct (new_operation_truncates St Df sp s' dl) as [_ ->]. unfold History.log.
    destruct (rev (before St sp)); reflexivity.
  Qed.
  Lemma log_head s0 es : nth 0 (log (spec_run (spec_init St s0) es)) s0 = s0.
  Proof.
    assert (H : forall sp, hd s0 (log (spec_run sp es)) = hd s0 (log sp)).
    { induction es as [|e es IH]; intros sp; [reflexivity|]. rewrite <- (hd_step sp e). apply IH. }
    specialize (H (spec_init St s0)). destruct (log _); [reflexivity | exact H].
  Qed.

  (* after any valid history, k undos then j redos: the log is unchanged and the workbook is in
     the state k places before and then j places after the cursor, as far as the log reaches *)
  Theorem walk s0 es k j :
    valid (init s0) es ->
    let sp := spec_run (spec_init St s0) es in
    st St Df (run (run (init s0) es) (repeat Undo k ++ repeat Redo j))
    = nth (Nat.min (cursor sp - k + j) (length (log sp) - 1)) (log sp) s0.
  Proof.
    intros Hv sp.
    assert (HR : R St Df apply unapply (run (run (init s0) es) (repeat Undo k ++ repeat Redo j))
                   (spec_run (spec_run sp (repeat Undo k)) (repeat Redo j))).
    { unfold History.spec_run at 1 2. rewrite <- fold_left_app. apply refinement.
      - apply refinement; [apply R_init | exact Hv].
      - apply valid_moves. intros s' dl [H|H]%in_app_or; apply repeat_spec in H; discriminate. }
    destruct HR as [-> _]. rewrite (cur_nth St _ s0).
    destruct (undo_k k sp) as [Hl Hc], (redo_k j (spec_run sp (repeat Undo k))) as [Hl2 Hc2].
    rewrite Hl2, Hc2, Hl, Hc. reflexivity.
  Qed.

  (* C01: k more undos after any valid history *)
  Theorem walk_back_k s0 es k :
    valid (init s0) es ->
    let sp := spec_run (spec_init St s0) es in
    st St Df (run (run (init s0) es) (repeat Undo k)) = nth (cursor sp - k) (log sp) s0.
  Proof.
    intros Hv sp. pose proof (walk s0 es k 0 Hv) as H. cbn [repeat] in H. rewrite app_nil_r in H.
    rewrite H. fold sp. pose proof (cursor_in_log sp). f_equal. lia.
  Qed.

  (* C01: undoing as many times as the cursor says restores the initial workbook *)
  Theorem walk_back_all s0 es :
    valid (init s0) es ->
    let sp := spec_run (spec_init St s0) es in
    st St Df (run (run (init s0) es) (repeat Undo (cursor sp))) = s0.
  Proof.
    intros Hv sp. rewrite (walk_back_k s0 es (cursor sp) Hv). fold sp. rewrite Nat.sub_diag. apply log_head.
  Qed.

  (* C02: k undos then j <= k redos: the state k - j places before the cursor *)
  Theorem walk_back_then_forward s0 es k j :
    valid (init s0) es -> k <= cursor (spec_run (spec_init St s0) es) -> j <= k ->
    let sp := spec_run (spec_init St s0) es in
    st St Df (run (run (init s0) es) (repeat Undo k ++ repeat Redo j)) = nth (cursor sp - k + j) (log sp) s0.
  Proof.
    intros Hv Hk Hj sp. rewrite (walk s0 es k j Hv). fold sp in Hk |- *.
    pose proof (cursor_in_log sp). f_equal. lia.
  Qed.
End WalkBack.
