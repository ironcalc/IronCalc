(* UserModel/HistoryProofs.v — the machine refines the cursor specification, undo restores
   the state before the undone operation, redo reproduces the state after it, and a replica
   that applies the queue — cut into batches in any way — converges. For every type of
   states and diffs and every forward/backward interpretation of a diff. *)
From Coq Require Import List Lia.
Import ListNotations.
From IronCalc Require Import UserModel.History.

Section Proofs.
  Variables St Df : Type.
  Variable apply unapply : Df -> St -> St.

  Notation machine := (machine St Df).
  Notation step := (step St Df apply unapply).
  Notation run := (run St Df apply unapply).
  Notation valid := (valid St Df apply unapply).
  Notation faithful := (faithful St Df apply unapply).
  Notation apply_list := (apply_list St Df apply).
  Notation replica_batch := (replica_batch St Df apply unapply).

  (* undo entries are faithful between consecutive states before the cursor ... *)
  Fixpoint rel_undo (c : St) (bs : list St) (us : list (list Df)) : Prop :=
    match bs, us with
    | [], [] => True
    | b :: bs', dl :: us' => faithful b dl c /\ rel_undo b bs' us'
    | _, _ => False
    end.
  (* ... and redo entries between consecutive states after it *)
  Fixpoint rel_redo (c : St) (ars : list St) (rs : list (list Df)) : Prop :=
    match ars, rs with
    | [], [] => True
    | a :: ars', dl :: rs' => faithful c dl a /\ rel_redo a ars' rs'
    | _, _ => False
    end.

  Definition R (m : machine) (sp : spec St) : Prop :=
    st St Df m = cur St sp /\ rel_undo (cur St sp) (before St sp) (undo_stack St Df m)
    /\ rel_redo (cur St sp) (after St sp) (redo_stack St Df m).

  Lemma R_step m sp e :
    R m sp -> (match e with Do s' dl => faithful (st St Df m) dl s' | _ => True end) ->
    R (step m e) (spec_step St Df sp e).
  Proof.
    intros (Hst & Hu & Hr) Hv. destruct m as [s us rs q], sp as [bs c ars]. cbn in *. subst s.
    destruct e as [s' dl| |]; cbn.
    - repeat split; cbn; auto; apply Hv.
    - destruct us as [|dl us'], bs as [|b bs']; cbn in Hu; try contradiction; cbn.
      + repeat split; auto.
      + destruct Hu as [Hf Hu']. repeat split; cbn; auto; apply Hf.
    - destruct rs as [|dl rs'], ars as [|a ars']; cbn in Hr; try contradiction; cbn.
      + repeat split; auto.
      + destruct Hr as [Hf Hr']. repeat split; cbn; auto; apply Hf.
  Qed.

  Theorem refinement es : forall m sp,
    R m sp -> valid m es -> R (run m es) (spec_run St Df sp es).
  Proof.
    induction es as [|e es IH]; intros m sp HR Hv; cbn in *; [exact HR|].
    destruct Hv as [He Hv]. apply IH; [apply R_step; assumption | exact Hv].
  Qed.

  Definition init (s0 : St) : machine :=
    {| st := s0; undo_stack := []; redo_stack := []; queue := [] |}.
  Definition spec_init (s0 : St) : spec St := {| before := []; cur := s0; after := [] |}.

  Lemma R_init s0 : R (init s0) (spec_init s0).
  Proof. repeat split. Qed.

  Lemma cur_nth (sp : spec St) d : cur St sp = nth (cursor St sp) (log St sp) d.
  Proof. unfold log, cursor. rewrite <- rev_length. symmetry. apply nth_middle. Qed.

  (* C02: after any valid interleaving of operations, undo and redo the workbook is the
     state under the cursor, and can_undo / can_redo say whether the cursor can move *)
  Theorem cursor_semantics s0 es :
    valid (init s0) es ->
    let m := run (init s0) es in
    let sp := spec_run St Df (spec_init s0) es in
    st St Df m = nth (cursor St sp) (log St sp) s0 /\
    (can_undo St Df m = true <-> 0 < cursor St sp) /\
    (can_redo St Df m = true <-> cursor St sp + 1 < length (log St sp)).
  Proof.
    intros Hv m sp. destruct (refinement es _ _ (R_init s0) Hv) as (Hst & Hu & Hr). fold m sp in Hst, Hu, Hr.
    split; [rewrite Hst; apply cur_nth|]. unfold log, cursor, can_undo, can_redo. rewrite app_length, rev_length. split.
    - (* [rel_undo] pairs the undo stack with the states before the cursor: both empty or neither *)
      destruct (undo_stack St Df m), (before St sp); cbn in *; try contradiction; split; (discriminate || lia || reflexivity).
    - destruct (redo_stack St Df m), (after St sp); cbn in *; try contradiction; split; (discriminate || lia || reflexivity).
  Qed.

  (* C01: undoing the most recent operation gives back exactly the state it started from *)
  Theorem undo_restores m s' dl :
    faithful (st St Df m) dl s' -> st St Df (step (step m (Do s' dl)) Undo) = st St Df m.
  Proof. intros [_ Hun]. exact Hun. Qed.

  (* C02: undo then redo reproduces the state that followed the original operation *)
  Theorem undo_redo_identity m sp :
    R m sp -> can_undo St Df m = true -> st St Df (step (step m Undo) Redo) = st St Df m.
  Proof.
    intros (Hst & Hu & _) Hcan. destruct m as [s us rs q], sp as [bs c ars]. cbn in *. subst s.
    destruct us as [|dl us']; [discriminate|]. cbn.
    destruct bs as [|b bs']; cbn in Hu; [contradiction|]. destruct Hu as [[Hap Hun] _].
    rewrite Hun. exact Hap.
  Qed.

  (* a new operation discards everything after the cursor *)
  Theorem new_operation_truncates sp s' dl :
    after St (spec_step St Df sp (Do s' dl)) = [] /\
    log St (spec_step St Df sp (Do s' dl)) = rev (before St sp) ++ [cur St sp; s'].
  Proof. split; [reflexivity|]. unfold log. cbn. rewrite <- app_assoc. reflexivity. Qed.

  (* ---- replication (C03) ---- *)

  Lemma replica_batch_app r a b : replica_batch r (a ++ b) = replica_batch (replica_batch r a) b.
  Proof. unfold replica_batch. apply fold_left_app. Qed.

  (* what one event appends to the outgoing queue takes a replica from the state before the event
     to the state after it; of a recorded diff list only the forward replay matters *)
  Lemma queue_step m e :
    exists qs, queue St Df (step m e) = queue St Df m ++ qs /\
               ((match e with Do s' dl => apply_list dl (st St Df m) = s' | _ => True end) ->
                replica_batch (st St Df m) qs = st St Df (step m e)).
  Proof.
    destruct e as [s' dl| |]; cbn.
    - exists [(TRedo, dl)]. auto.
    - destruct (undo_stack St Df m) as [|dl u]; [exists []; rewrite app_nil_r | exists [(TUndo, dl)]]; auto.
    - destruct (redo_stack St Df m) as [|dl r]; [exists []; rewrite app_nil_r | exists [(TRedo, dl)]]; auto.
  Qed.

  (* a replica in the primary's state that applies what the primary enqueued while running
     [es] ends in the primary's state *)
  Theorem replica_follows es : forall m,
    valid m es ->
    exists qs, queue St Df (run m es) = queue St Df m ++ qs /\
               replica_batch (st St Df m) qs = st St Df (run m es).
  Proof.
    induction es as [|e es IH]; intros m Hv.
    - exists []. rewrite app_nil_r. split; reflexivity.
    - destruct Hv as [He Hv]. destruct (queue_step m e) as (q1 & Hq1 & Hsim).
      destruct (IH (step m e) Hv) as (q2 & Hq2 & Hrep).
      exists (q1 ++ q2). change (run m (e :: es)) with (run (step m e) es). split.
      + rewrite Hq2, Hq1, app_assoc. reflexivity.
      + rewrite replica_batch_app, Hsim; [exact Hrep | destruct e; auto; apply He].
  Qed.

  (* however the queue is cut into batches, applying the batches in order is applying the queue *)
  Theorem batching_irrelevant (batches : list (list (qentry Df))) r :
    fold_left replica_batch batches r = replica_batch r (concat batches).
  Proof.
    revert r. induction batches as [|b bs IH]; intro r; cbn [fold_left concat]; [reflexivity|].
    rewrite IH, replica_batch_app. reflexivity.
  Qed.

  (* C03: same initial state, any valid history, any flush schedule: the replica converges *)
  Theorem replicas_converge s0 es batches :
    valid (init s0) es ->
    concat batches = queue St Df (run (init s0) es) ->
    fold_left replica_batch batches s0 = st St Df (run (init s0) es).
  Proof.
    intros Hv Hcut. rewrite batching_irrelevant, Hcut.
    destruct (replica_follows es _ Hv) as (qs & Hq & Hrep).
    cbn in Hq. rewrite Hq. exact Hrep.
  Qed.
End Proofs.
