(* UserModel/AtomicProofs.v — a failed Checked operation changes nothing (state, undo stack,
   redo stack, outgoing queue); the other two disciplines do, with witnesses. *)
From Coq Require Import List ZArith.
Import ListNotations.
From IronCalc Require Import UserModel.History UserModel.Atomic.

Section Proofs.
  Variables St Df : Type.
  Variable apply unapply : Df -> St -> St.
  Variable item : Type.
  Variable valid_item : item -> St -> bool.
  Variable do_item : item -> St -> St * list Df.

  (* C04 for the Checked discipline: for every machine state (any history, any redo list)
     and every argument, failure leaves the machine — workbook, undo stack, redo stack and
     queue — exactly as it was *)
  Theorem checked_failure_changes_nothing is (m : machine St Df) :
    snd (perform_checked St Df apply unapply item valid_item do_item is m) = false ->
    fst (perform_checked St Df apply unapply item valid_item do_item is m) = m.
  Proof.
    unfold perform_checked. destruct (all_valid St Df item valid_item do_item is (st St Df m)).
    - destruct (run_items St Df item valid_item do_item is (st St Df m) []) as [[s' dl] f]. cbn. discriminate.
    - reflexivity.
  Qed.

  (* ... and undoing afterwards behaves as if the failed call never happened *)
  Theorem checked_failure_then_undo is (m : machine St Df) :
    snd (perform_checked St Df apply unapply item valid_item do_item is m) = false ->
    step St Df apply unapply (fst (perform_checked St Df apply unapply item valid_item do_item is m)) Undo
    = step St Df apply unapply m Undo.
  Proof. intro H. rewrite (checked_failure_changes_nothing is m H). reflexivity. Qed.

  (* a successful Checked operation is one Do event of the history machine *)
  Theorem checked_success_is_do is (m : machine St Df) :
    snd (perform_checked St Df apply unapply item valid_item do_item is m) = true ->
    exists s' dl, fst (perform_checked St Df apply unapply item valid_item do_item is m)
                  = step St Df apply unapply m (Do s' dl).
  Proof.
    unfold perform_checked. destruct (all_valid St Df item valid_item do_item is (st St Df m)).
    - destruct (run_items St Df item valid_item do_item is (st St Df m) []) as [[s' dl] f]. cbn.
      intros _. exists s', dl. reflexivity.
    - cbn. discriminate.
  Qed.

  (* general form of the two defective disciplines' failures, for every machine and argument *)
  Theorem push_first_failure is intended (m : machine St Df) :
    snd (perform_push_first St Df item valid_item do_item is intended m) = false ->
    let m' := fst (perform_push_first St Df item valid_item do_item is intended m) in
    st St Df m' = st St Df m /\ undo_stack St Df m' = intended :: undo_stack St Df m /\
    redo_stack St Df m' = [] /\ queue St Df m' = queue St Df m ++ [(TRedo, intended)].
  Proof.
    unfold perform_push_first.
    destruct (run_items St Df item valid_item do_item is (st St Df m) []) as [[s' dl] f].
    destruct f; cbn; [intros _; repeat split | discriminate].
  Qed.

  Theorem partial_failure is (m : machine St Df) :
    snd (perform_partial St Df apply unapply item valid_item do_item is m) = false ->
    let m' := fst (perform_partial St Df apply unapply item valid_item do_item is m) in
    st St Df m' = fst (fst (run_items St Df item valid_item do_item is (st St Df m) [])) /\
    undo_stack St Df m' = undo_stack St Df m /\ redo_stack St Df m' = redo_stack St Df m /\
    queue St Df m' = queue St Df m.
  Proof.
    unfold perform_partial.
    destruct (run_items St Df item valid_item do_item is (st St Df m) []) as [[s' dl] f].
    destruct f; cbn; [intros _; repeat split | discriminate].
  Qed.
End Proofs.

(* the two other disciplines violate the property; witnesses over St := Z, Df := Z * Z *)
Definition z_valid (i : Z) (_ : Z) : bool := (0 <=? i)%Z.
Definition z_do (i : Z) (s : Z) : Z * list (Z * Z) := ((s + i)%Z, [(s, (s + i)%Z)]).
Definition z_apply (d : Z * Z) (_ : Z) : Z := snd d.
Definition z_unapply (d : Z * Z) (_ : Z) : Z := fst d.
Definition m_with_redo : machine Z (Z * Z) :=
  {| st := 5%Z; undo_stack := [[(0, 5)%Z]]; redo_stack := [[(5, 9)%Z]]; queue := [] |}.

(* set_timezone-style: the call fails, yet an undo entry appears, the redo list is gone and
   the replicas are told about a change that never happened *)
Lemma push_first_refuted :
  let r := perform_push_first Z (Z * Z) Z z_valid z_do [(-1)%Z] [(5, 5)%Z] m_with_redo in
  snd r = false /\ fst r <> m_with_redo /\ redo_stack Z (Z * Z) (fst r) = [] /\
  length (undo_stack Z (Z * Z) (fst r)) = 2%nat /\ length (queue Z (Z * Z) (fst r)) = 1%nat.
Proof. vm_compute. repeat split; congruence. Qed.

(* set_columns_width-style: the call fails after the first column was changed; nothing is
   recorded, so the partial edit cannot even be undone *)
Lemma partial_loop_refuted :
  let r := perform_partial Z (Z * Z) z_apply z_unapply Z z_valid z_do [3; (-1)]%Z m_with_redo in
  snd r = false /\ st Z (Z * Z) (fst r) = 8%Z /\ st Z (Z * Z) (fst r) <> st Z (Z * Z) m_with_redo /\
  undo_stack Z (Z * Z) (fst r) = undo_stack Z (Z * Z) m_with_redo.
Proof. vm_compute. repeat split; congruence. Qed.

(* non-vacuity: the Checked discipline does fail on this input, and does succeed on another *)
Example checked_fails_somewhere :
  snd (perform_checked Z (Z * Z) z_apply z_unapply Z z_valid z_do [3; (-1)]%Z m_with_redo) = false /\
  snd (perform_checked Z (Z * Z) z_apply z_unapply Z z_valid z_do [3; 1]%Z m_with_redo) = true.
Proof. vm_compute. split; reflexivity. Qed.
