(* UserModel/FlushProofs.v — with a queue that is emptied by every flush and batches that are
   delivered late (in order), the replica is always exactly "what is still on its way" behind
   the primary, and equal to it whenever nothing is on its way. *)
From Coq Require Import List Lia.
Import ListNotations.
From IronCalc Require Import UserModel.History UserModel.HistoryProofs UserModel.Flush.

Section Proofs.
  Variables St Df : Type.
  Variable apply unapply : Df -> St -> St.

  Notation fstep := (fstep St Df apply unapply).
  Notation frun := (frun St Df apply unapply).
  Notation fvalid := (fvalid St Df apply unapply).
  Notation settled := (settled St Df apply unapply).
  Notation system := (system St Df).

  (* the invariant: the replica, once all pending entries arrive, is in the primary's state *)
  Definition Sync (s : system) : Prop := settled s = st St Df (prim St Df s).

  Lemma sync_init s0 : Sync (finit St Df s0).
  Proof. reflexivity. Qed.

  Lemma sync_step s f :
    (match f with Ev (Do s' dl) => apply_list St Df apply dl (st St Df (prim St Df s)) = s' | _ => True end) ->
    Sync s -> Sync (fstep s f).
  Proof.
    unfold Sync, settled. intros Hv Hs. destruct s as [m fl r]. destruct f as [e| |]; cbn in *.
    - (* the queue grows by what takes a replica from the old state of the primary to the new one *)
      destruct (queue_step St Df apply unapply m e) as (qs & -> & Hq).
      rewrite (replica_batch_app St Df apply unapply), Hs. apply Hq. destruct e; auto.
    - rewrite fold_left_app. exact Hs.
    - destruct fl as [|b bs]; exact Hs.
  Qed.

  Theorem sync_run fs : forall s, Sync s -> fvalid s fs -> Sync (frun s fs).
  Proof.
    induction fs as [|f fs IH]; intros s Hs Hv; [exact Hs|].
    destruct Hv as [Hf Hv]. apply IH; [apply sync_step; assumption|exact Hv].
  Qed.

  Lemma sync_quiescent s : Sync s -> quiescent St Df s -> repl St Df s = st St Df (prim St Df s).
  Proof. unfold Sync, settled. intros Hs [Hfl Hq]. rewrite Hfl, Hq in Hs. exact Hs. Qed.

  (* C03 at every quiescent point of any schedule of operations, flushes and late deliveries *)
  Theorem converged_when_quiescent s0 fs :
    fvalid (finit St Df s0) fs ->
    quiescent St Df (frun (finit St Df s0) fs) ->
    repl St Df (frun (finit St Df s0) fs) = st St Df (prim St Df (frun (finit St Df s0) fs)).
  Proof. intros Hv. apply sync_quiescent, sync_run, Hv. apply sync_init. Qed.

  (* flushing and delivering everything makes any reachable system quiescent, so the replica
     can always catch up: Flush, then one Deliver per batch in flight *)
  Definition drain (s : system) : list (fevent St Df) :=
    Flush :: repeat Deliver (S (length (inflight St Df s))).

  Lemma deliver_all n : forall s, length (inflight St Df s) <= n ->
    inflight St Df (frun s (repeat Deliver n)) = [] /\
    prim St Df (frun s (repeat Deliver n)) = prim St Df s.
  Proof.
    induction n as [|n IH]; intros s Hl.
    - cbn. destruct (inflight St Df s); [auto | cbn in Hl; lia].
    - cbn [repeat frun fold_left]. destruct s as [m [|b bs] r]; cbn in *; apply IH; cbn; lia.
  Qed.

  Lemma drain_effect s :
    quiescent St Df (frun s (drain s)) /\ st St Df (prim St Df (frun s (drain s))) = st St Df (prim St Df s).
  Proof.
    destruct (deliver_all (S (length (inflight St Df s))) (fstep s Flush)) as [H1 H2].
    - cbn. rewrite app_length. cbn. lia.
    - change (frun s (drain s)) with (frun (fstep s Flush) (repeat Deliver (S (length (inflight St Df s))))).
      unfold quiescent. rewrite H1, H2. auto.
  Qed.

  Lemma fvalid_drain s : fvalid s (drain s).
  Proof.
    unfold drain. split; [exact I|]. generalize (fstep s Flush) as s'.
    generalize (S (length (inflight St Df s))) as n.
    induction n as [|n IH]; intro s'; cbn; auto.
  Qed.

  (* eventual convergence: after any valid schedule, draining brings the replica to exactly the
     primary's state, which draining does not change *)
  Theorem replica_catches_up s0 fs :
    fvalid (finit St Df s0) fs ->
    let s := frun (finit St Df s0) fs in
    repl St Df (frun s (drain s)) = st St Df (prim St Df s).
  Proof.
    intros Hv s. destruct (drain_effect s) as [Hq <-]. apply sync_quiescent; [|exact Hq].
    apply sync_run, fvalid_drain. apply sync_run, Hv. apply sync_init.
  Qed.
End Proofs.
